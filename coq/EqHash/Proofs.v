(* [ty_eq] is the conjunction of five equalities ([ty_eq_spec]); the equivalence laws, the hash contract and the same for
   [approx_eq] and [field_eq] follow from that. *)
From Coq Require Import ZArith List Bool.
From PV Require Import Util.ListSet BLS.Model BLS.Den BLS.ProofsMod Layout.Types Layout.ProofsSpec EqHash.Model.
Import ListNotations.
Open Scope Z_scope.

Lemma list_eqb_refl l : list_eqb l l = true. Proof. apply list_eqb_eq. reflexivity. Qed.

Lemma eqb_sym {A} (f : A -> A -> bool) : (forall a b, f a b = true <-> a = b) -> forall a b, f a b = f b a.
Proof. intros H a b. apply eq_iff_eq_true. split; intros E; apply H; apply H in E; congruence. Qed.

Lemma tok_eqb_eq a b : tok_eqb a b = true <-> a = b.
Proof.
  destruct a, b; simpl; split; intros H; try discriminate; try congruence.
  - apply list_eqb_eq in H. congruence.
  - inversion H. apply list_eqb_refl.
  - apply Z.eqb_eq in H. congruence.
  - inversion H. apply Z.eqb_refl.
Qed.

Lemma toks_eqb_eq a b : toks_eqb a b = true <-> a = b.
Proof.
  revert b. induction a as [|x a IH]; intros [|y b]; simpl; split; intros H; try discriminate; try congruence.
  - apply andb_true_iff in H. destruct H as [H1 H2]. apply tok_eqb_eq in H1. apply IH in H2. congruence.
  - inversion H; subst. apply andb_true_iff. split; [apply tok_eqb_eq; auto|apply IH; auto].
Qed.

Lemma name_eqb_eq x y : name_eqb x y = true <-> x = y.
Proof. destruct x, y; simpl; split; intros H; try congruence; [apply list_eqb_eq in H; congruence|inversion H; apply list_eqb_refl]. Qed.

Lemma approx_eq_refl a : approx_eq a a = true.
Proof. unfold approx_eq. rewrite !Z.eqb_refl, list_eqb_refl. reflexivity. Qed.
Lemma approx_eq_sym a b : approx_eq a b = approx_eq b a.
Proof. unfold approx_eq. rewrite (Z.eqb_sym (omin a)), (Z.eqb_sym (omax a)), (eqb_sym list_eqb list_eqb_eq (omod a 32)). reflexivity. Qed.
Lemma approx_eq_spec a b : approx_eq a b = true <-> omin a = omin b /\ omax a = omax b /\ omod a 32 = omod b 32.
Proof.
  unfold approx_eq. rewrite !andb_true_iff, !Z.eqb_eq, list_eqb_eq. tauto.
Qed.
Lemma approx_eq_trans a b c : approx_eq a b = true -> approx_eq b c = true -> approx_eq a c = true.
Proof. intros H1 H2. apply approx_eq_spec in H1, H2. apply approx_eq_spec. intuition congruence. Qed.

Lemma approx_eq_equiv a b c : approx_eq a a = true /\ approx_eq a b = approx_eq b a /\
  (approx_eq a b = true -> approx_eq b c = true -> approx_eq a c = true) /\ (approx_eq a b = true -> bls_hash a = bls_hash b).
Proof.
  repeat split; [apply approx_eq_refl|apply approx_eq_sym|apply approx_eq_trans|].
  intros H. apply approx_eq_spec in H. unfold bls_hash. destruct H as (A & B & _). congruence.
Qed.

Theorem ty_eq_refl a : ty_eq a a = true.
Proof. unfold ty_eq. rewrite Z.eqb_refl, approx_eq_refl. simpl. apply toks_eqb_eq. reflexivity. Qed.

Theorem ty_eq_sym a b : ty_eq a b = ty_eq b a.
Proof.
  unfold ty_eq. rewrite (Z.eqb_sym (cls a)), (approx_eq_sym (bls a)), (eqb_sym toks_eqb toks_eqb_eq (show a)). reflexivity.
Qed.

Theorem ty_eq_spec a b : ty_eq a b = true <->
  cls a = cls b /\ show a = show b /\ omin (bls a) = omin (bls b) /\ omax (bls a) = omax (bls b) /\ omod (bls a) 32 = omod (bls b) 32.
Proof. unfold ty_eq. rewrite !andb_true_iff, Z.eqb_eq, approx_eq_spec, toks_eqb_eq. tauto. Qed.

Theorem ty_eq_trans a b c : ty_eq a b = true -> ty_eq b c = true -> ty_eq a c = true.
Proof. intros H1 H2. apply ty_eq_spec in H1, H2. apply ty_eq_spec. intuition congruence. Qed.

Theorem ty_eq_hash a b : ty_eq a b = true -> ty_hash a = ty_hash b.
Proof. intros H. apply ty_eq_spec in H. destruct H as (A & B & C & D & E). unfold ty_hash, bls_hash. congruence. Qed.

(* equal length sets never separate types of the same class and string form *)
Theorem ty_eq_complete a b : wft a = true -> wft b = true -> cls a = cls b -> show a = show b ->
  (forall x, Den (bls a) x <-> Den (bls b) x) -> ty_eq a b = true.
Proof.
  intros Wa Wb C S H. apply ty_eq_spec.
  destruct (approx_eq_complete (bls a) (bls b) (proj1 (wf_bls a Wa)) (proj1 (wf_bls b Wb)) H) as [E _].
  apply approx_eq_spec in E. tauto.
Qed.

Theorem field_eq_props a b c : field_eq a a = true /\ field_eq a b = field_eq b a /\
  (field_eq a b = true -> field_eq b c = true -> field_eq a c = true) /\
  (field_eq a b = true -> ty_hash (snd a) = ty_hash (snd b) /\ fst a = fst b).
Proof.
  unfold field_eq. repeat split.
  - rewrite ty_eq_refl. apply name_eqb_eq. reflexivity.
  - rewrite ty_eq_sym, (eqb_sym name_eqb name_eqb_eq (fst a)). reflexivity.
  - intros H1 H2. apply andb_true_iff in H1, H2. apply andb_true_iff.
    split; [eapply ty_eq_trans; [apply H1|apply H2]|]. apply name_eqb_eq. apply proj2, name_eqb_eq in H1, H2. congruence.
  - apply andb_true_iff in H. apply ty_eq_hash, H.
  - apply andb_true_iff in H. apply name_eqb_eq, H.
Qed.
