(* Builder/ReaderProofs.v - the world of a run and the origin of its errors.  The line machine touches the world only by
   reading dependencies and by calling the print handler: the world after a run is the replay of these events in the
   order of the text (run_traced).  An error that comes out of a read, at whatever depth, is the error of the file in
   which it was raised, with that file's path and line (read_ns_origin). *)
From Coq Require Import ZArith List Lia.
From PV Require Import Builder.Lines Builder.Basics Builder.LineProofs Builder.Reader.
Import ListNotations.
Open Scope Z_scope.

Section Machine.
Variables T V D W : Type.
Variable read_dep : D -> W -> W * option eloc.
Variable emit : Z -> text -> W -> W.

Notation st := (st T V W).
Notation line := (line T V D).
Notation flush := (flush T V W).
Notation run_pre := (run_pre T V D W read_dep).
Notation do_act := (do_act T V W emit).
Notation do_stmt := (do_stmt T V D W read_dep emit).
Notation act_body := (act_body T V W emit).
Notation step_line := (step_line T V D W read_dep emit).
Notation run := (run T V D W read_dep emit).
Notation line_no := (line_no T V W).
Notation wld := (Lines.world T V W).

(* local (no path yet), or, unchanged, the error of a nested read that already has a path *)
Definition sourced (e : eloc) : Prop := e_path e = None \/ exists d w0 w1, read_dep d w0 = (w1, Some e) /\ e_path e <> None.

Lemma cls_sourced : forall (s : st) e, cls T V D W read_dep s e -> sourced e.
Proof.
  intros s e [->|a cf n _ ->|d w0 w1 e0 H ->]; [left; reflexivity..|].
  unfold inject_line. destruct (e_path e0) eqn:Ep.
  - right. exists d, w0, w1. split; [exact H|congruence].
  - left. unfold fill_line. destruct (e_line e0); exact Ep.
Qed.

Lemma run_upto_sourced : forall ls (s : st), sat (run_upto T V D W read_dep emit ls s) (fun _ => True) (fun e _ => sourced e).
Proof.
  induction ls as [|l r IH]; intros s; [exact I|].
  apply (sat_bind (sat_mono (step_line_steps T V D W read_dep emit l s) (fun _ _ => I) (fun e _ => cls_sourced s e))).
  intros s1 _ _. apply IH.
Qed.

Lemma run_err_origin : forall ls w e w', run ls w = Err e w' -> sourced e.
Proof.
  intros ls w e w' E. pose proof (run_upto_sourced ls (init T V W w)) as H. rewrite run_finish in E.
  destruct (run_upto T V D W read_dep emit ls (init T V W w)) as [s|]; [|injection E as <- _; exact H].
  left. destruct (finish_err T V W _ _ _ E) as [->|(a & cf & n & _ & ->)]; reflexivity.
Qed.

(* a definition without versioned types: the world changes only through its own @print directives *)
Definition no_reads (l : line) : Prop :=
  forall x, l_stmt T V D l = Some x -> Forall (fun p => match p with PRead _ => False | _ => True end) (s_pre T V D x).

Definition own_print (l : line) : option text :=
  match l_stmt T V D l with Some (Stmt _ (XDir KPrint _ sh)) => Some sh | _ => None end.

Inductive event := Reads (d : D) | Emits (n : Z) (t : text).

Definition apply (w : W) (ev : event) : W :=
  match ev with Reads d => fst (read_dep d w) | Emits n t => emit n t w end.
Definition replay (evs : list event) (w : W) : W := fold_left apply evs w.

Definition pre_event (p : pre D) : list event := match p with PRead d => [Reads d] | _ => [] end.
Definition act_event (n : Z) (x : action T V) : list event := match x with XDir KPrint _ sh => [Emits n sh] | _ => [] end.
(* the events of a line that stands on physical line n, and of a text that starts there, in the order of the visit *)
Definition line_events (n : Z) (l : line) : list event :=
  match l_stmt T V D l with
  | Some x => flat_map pre_event (s_pre T V D x) ++ act_event n (s_act T V D x)
  | None => []
  end.
Fixpoint events (n : Z) (ls : list line) : list event :=
  match ls with
  | [] => []
  | l :: r => line_events n l ++ events (n + 1 + l_extra T V D l) r
  end.

(* r, started in world w, replays evs completely when it succeeds and an initial part of evs when it fails *)
Definition traced {A : Type} (evs : list event) (w : W) (wf : A -> W) (r : res W A) : Prop :=
  sat r (fun a => wf a = replay evs w) (fun _ w' => exists p q, evs = p ++ q /\ w' = replay p w).

Lemma replay_cons : forall ev evs w, replay (ev :: evs) w = replay evs (apply w ev).
Proof. reflexivity. Qed.

Lemma replay_app : forall p q w, replay (p ++ q) w = replay q (replay p w).
Proof. intros. apply fold_left_app. Qed.

Lemma traced_bind : forall (A B : Type) e1 e2 w (wf : A -> W) (wf' : B -> W) r f,
  traced e1 w wf r -> (forall a, r = Ok a -> traced e2 (wf a) wf' (f a)) -> traced (e1 ++ e2) w wf' (bind W r f).
Proof.
  intros A B e1 e2 w wf wf' [a|e w1] f H Hf; cbn in *.
  - specialize (Hf a eq_refl). rewrite H in Hf. destruct (f a) as [b|e w1]; cbn in *.
    + rewrite replay_app. exact Hf.
    + destruct Hf as (p & q & -> & ->). exists (e1 ++ p), q. rewrite app_assoc, replay_app. auto.
  - destruct H as (p & q & -> & ->). exists p, (q ++ e2). rewrite app_assoc. auto.
Qed.

Lemma traced_quiet : forall (A : Type) w (wf : A -> W) r, sat r (fun a => wf a = w) (fun _ w' => w' = w) -> traced [] w wf r.
Proof. intros A w wf [a|e w1]; cbn; [auto|]. intros ->. exists [], []. auto. Qed.

Lemma traced_all : forall (A : Type) (X : list event -> W -> Prop) evs w (wf : A -> W) r,
  traced evs w wf r -> (forall p q, evs = p ++ q -> X p (replay p w)) ->
  sat r (fun a => X evs (wf a)) (fun _ w' => exists p q, evs = p ++ q /\ X p w').
Proof.
  intros A X evs w wf [a|e w'] Tr H; cbn in *.
  - rewrite Tr. exact (H evs [] (eq_sym (app_nil_r evs))).
  - destruct Tr as (p & q & E & ->). exists p, q. split; [exact E|exact (H p q E)].
Qed.

Lemma step_pre_traced : forall p (s : st), traced (pre_event p) (wld s) wld (step_pre T V D W read_dep p s).
Proof.
  intros p s. destruct p; cbn.
  - apply traced_quiet, flush_world.
  - reflexivity.
  - exists [], []. auto.
  - destruct (read_dep d (wld s)) as [w1 [e|]] eqn:R; cbn; [exists [Reads d], []; cbn|]; rewrite R; auto.
Qed.

Lemma run_pre_traced : forall ps (s : st), traced (flat_map pre_event ps) (wld s) wld (run_pre ps s).
Proof.
  induction ps as [|p ps IH]; intros s; [reflexivity|].
  cbn [flat_map Lines.run_pre]. eapply traced_bind; [apply step_pre_traced|intros a _; apply IH].
Qed.

Lemma act_body_traced : forall x (f : st), traced (act_event (line_no f) x) (wld f) wld (act_body x f).
Proof.
  intros x f. pose proof (act_body_sat emit x f) as H. unfold traced. destruct (act_body x f) as [s1|e w]; cbn [sat] in *.
  - destruct H as (_ & _ & ->). destruct x as [|[] ? ?|]; reflexivity.
  - destruct H as [_ ->]. exists [], (act_event (line_no f) x). auto.
Qed.

Lemma do_act_traced : forall x (s : st), traced (act_event (line_no s) x) (wld s) wld (do_act x s).
Proof.
  intros x s. rewrite do_act_body. apply (traced_bind _ _ [] (act_event (line_no s) x) _ wld); [apply traced_quiet, flush_world|].
  intros f Ef. rewrite <- (flush_line T V W _ _ Ef). apply act_body_traced.
Qed.

Theorem step_line_traced : forall l (s : st), traced (line_events (line_no s) l) (wld s) wld (step_line l s).
Proof.
  intros l s. unfold line_events. destruct (line_kind l) as [[x Hx]|[Hq|He]].
  - rewrite (step_line_stmt _ _ _ Hx), Hx, <- (app_nil_r (_ ++ _)).
    eapply traced_bind; [|intros s1 _; apply add_comment_frame].
    eapply traced_bind; [apply run_pre_traced|]. intros s2 E2.
    rewrite <- (run_pre_line T V D W read_dep _ _ _ E2). apply do_act_traced.
  - rewrite (step_line_quiet _ _ Hq). unfold Spec.quietb in Hq. destruct (l_stmt T V D l); [discriminate|]. apply add_comment_frame.
  - rewrite (step_line_empty _ _ He). unfold Lines.is_empty_text in He. destruct (l_stmt T V D l); [discriminate|].
    apply traced_quiet, flush_world.
Qed.

(* exactly one call of the print handler per evaluated @print, with the line of the directive and str(value) *)
Theorem print_once_here : forall l pre g shown (s s1 : st),
  l_stmt T V D l = Some (Stmt pre (XDir KPrint g shown)) -> step_line l s = Ok s1 ->
  exists s2, run_pre pre s = Ok s2 /\ wld s1 = emit (line_no s) shown (wld s2).
Proof.
  intros l pre g shown s s1 Hs. rewrite (step_line_stmt _ _ _ Hs). unfold Lines.do_stmt. cbn [s_pre s_act].
  destruct (run_pre pre s) as [s2|] eqn:E2; [|discriminate]. cbn [bind].
  pose proof (do_act_traced (XDir KPrint g shown) s2) as Tr.
  destruct (do_act (XDir KPrint g shown) s2) as [s3|]; [|discriminate]. intros [= <-]. exists s2. split; [reflexivity|].
  rewrite <- (run_pre_line T V D W read_dep _ _ _ E2). destruct (add_comment_frame l s3) as (_ & _ & _ & ->). exact Tr.
Qed.

Lemma run_upto_traced : forall ls (s : st), traced (events (line_no s) ls) (wld s) wld (run_upto T V D W read_dep emit ls s).
Proof.
  induction ls as [|l r IH]; intros s; [reflexivity|].
  eapply traced_bind; [apply step_line_traced|]. intros s1 E1.
  rewrite <- (step_line_line T V D W read_dep emit _ _ _ E1). exact (IH (next_line T V D W l s1)).
Qed.

(* the world after run(): every dependency read and every @print of the text has acted on it, in order, each @print
   with its physical line - or, when the run fails, an initial part of them *)
Theorem run_traced : forall ls w, traced (events 1 ls) w snd (run ls w).
Proof.
  intros ls w. rewrite run_finish, <- (app_nil_r (events 1 ls)).
  eapply traced_bind; [exact (run_upto_traced ls (init T V W w))|]. intros s _.
  apply (traced_bind _ _ [] [] _ wld); [apply traced_quiet, flush_world|]. intros f _.
  apply traced_quiet, (sat_mono (finalize_spec T V W f)); [auto|]. intros e w' [_ H]. exact H.
Qed.

(* a property of the world that the dependency reads and the print handler preserve survives a replay, hence a run *)
Lemma replay_inv : forall (Q : W -> Prop) evs,
  (forall d w, In (Reads d) evs -> Q w -> Q (fst (read_dep d w))) -> (forall n t w, Q w -> Q (emit n t w)) ->
  forall w, Q w -> Q (replay evs w).
Proof.
  intros Q evs. induction evs as [|ev evs IH]; intros Hr He w Hq; [exact Hq|].
  apply IH; [intros d w0 Hd; apply Hr; right; exact Hd|exact He|].
  destruct ev; cbn; [apply Hr; [left; reflexivity|exact Hq]|apply He, Hq].
Qed.

Theorem run_inv : forall (Q : W -> Prop) ls,
  (forall d w, In (Reads d) (events 1 ls) -> Q w -> Q (fst (read_dep d w))) -> (forall n t w, Q w -> Q (emit n t w)) ->
  forall w, Q w -> sat (run ls w) (fun mw => Q (snd mw)) (fun _ w' => Q w').
Proof.
  intros Q ls Hr He w Hq.
  assert (R : forall p q, events 1 ls = p ++ q -> Q (replay p w)).
  { intros p q E. apply replay_inv; [|exact He|exact Hq]. intros d w0 Hd. apply Hr.
    rewrite E. apply in_or_app. left. exact Hd. }
  apply (sat_mono (traced_all _ (fun _ => Q) _ _ _ _ (run_traced ls w) R)); [auto|].
  intros e w' (p & q & _ & H). exact H.
Qed.

End Machine.

Arguments Reads {D}. Arguments Emits {D}.
Arguments traced_all {D W read_dep emit A} X {evs w wf r}.

Section ReaderProofs.
Variables T V : Type.
Notation file := (file T V).
Notation read_obj := (read_obj T V).
Notation read_targets := (read_targets T V).
Notation find_file := (find_file T V).

Lemma find_file_In : forall fs i f, find_file fs i = Some f -> In f fs /\ f_id T V f = i.
Proof.
  induction fs as [|g fs IH]; intros i f; cbn.
  - discriminate.
  - destruct (f_id T V g =? i) eqn:E.
    + intros H; inversion H; subst. split; [left; reflexivity|apply Z.eqb_eq; exact E].
    + intros H. destruct (IH _ _ H). split; [right; assumption|assumption].
Qed.

(* e was raised while file f itself was being processed: by parsimonious (syntax), or by its own statements / flush /
   finalize (the run of its lines ended with a local error e0); the reported error is e0 with f's path *)
Inductive origin (fs : list file) (e : eloc) : Prop :=
| origin_syntax : forall f n, In f fs -> f_syntax T V f = Some n -> e = ELoc (Some (f_path T V f)) n -> origin fs e
| origin_local : forall f rd em w e0 w', In f fs -> f_syntax T V f = None ->
    run T V Z world rd em (f_lines T V f) w = Err e0 w' -> e_path e0 = None ->
    e = ELoc (Some (f_path T V f)) (e_line e0) -> origin fs e.

Definition resolvable (fs : list file) (ids : list Z) : Prop := forall i, In i ids -> find_file fs i <> None.

Lemma memz_In : forall x l, memz x l = true <-> In x l.
Proof.
  intros x l. unfold memz. rewrite existsb_exists. split.
  - intros (y & H1 & H2). apply Z.eqb_eq in H2. subst. exact H1.
  - intros H. exists x. split; [exact H|apply Z.eqb_refl].
Qed.

Lemma filter_len_le : forall (A : Type) (f : A -> bool) l, (length (filter f l) <= length l)%nat.
Proof. intros A f l. induction l as [|x l IH]; cbn; [lia|]. destruct (f x); cbn; lia. Qed.

Lemma removez_In : forall x y l, In y (removez x l) -> In y l.
Proof. intros x y l H. unfold removez in H. apply filter_In in H. tauto. Qed.

Lemma removez_length : forall x l, In x l -> (length (removez x l) < length l)%nat.
Proof.
  intros x l. unfold removez. induction l as [|y l IH]; intros H; [destruct H|].
  cbn. destruct (x =? y) eqn:E; cbn.
  - pose proof (filter_len_le _ (fun y0 => negb (x =? y0)) l). lia.
  - destruct H as [H|H]; [subst; rewrite Z.eqb_refl in E; discriminate|]. specialize (IH H). lia.
Qed.

Lemma removez_length_le : forall x l, (length (removez x l) <= length l)%nat.
Proof. intros x l. unfold removez. apply filter_len_le. Qed.

(* the two closures inside Reader.read_obj, named: the print handler bound to a path and the dependency reader that it
   hands to the line machine (read_obj_unfold: read_obj is literally built from them) *)
Definition deliver (bound : text) (n : Z) (s : text) (w : world) : world := add_print (bound, n, s) w.

Definition depf (fuel : nat) (fs : list file) (bound : text) (lk : list Z) (d : Z) (w0 : world) : world * option eloc :=
  if memz d lk then
    let w1 := add_wanted d w0 in
    if memz d (cached w1) then (w1, None)
    else match read_obj fuel fs bound lk d w1 with
         | (w2, None) => (add_cached d w2, None)
         | (w2, Some e) => (w2, Some e)
         end
  else (w0, Some no_loc).

Lemma read_obj_unfold : forall fuel fs bound lookups i w, read_obj (S fuel) fs bound lookups i w =
  match find_file fs i with
  | None => (w, Some out_of_fuel)
  | Some f =>
      match f_syntax T V f with
      | Some n => (w, Some (ELoc (Some (f_path T V f)) n))
      | None =>
          match run T V Z world (depf fuel fs bound (removez i lookups)) (deliver bound) (f_lines T V f) w with
          | Ok (_, w') => (w', None)
          | Err e w' => (w', Some (fill_path e (f_path T V f)))
          end
      end
  end.
Proof. reflexivity. Qed.

(* C17_path_innermost: whatever the depth, the error that comes out of a read is the error of the file in which it was
   raised, with that file's path and the line (or absence of a line) it had there *)
Theorem read_obj_origin : forall fuel fs bound lk i w w' e,
  resolvable fs lk -> find_file fs i <> None -> (length (removez i lk) < fuel)%nat ->
  read_obj fuel fs bound lk i w = (w', Some e) -> origin fs e.
Proof.
  induction fuel as [|fuel IH]; intros fs bound lk i w w' e R Ri L; [lia|].
  rewrite read_obj_unfold. destruct (find_file fs i) as [f|] eqn:Ef; [|congruence].
  destruct (find_file_In _ _ _ Ef) as [Hin _].
  destruct (f_syntax T V f) as [n|] eqn:Es; [intros [= <- <-]; eapply origin_syntax; eauto|].
  destruct (run T V Z world _ _ (f_lines T V f) w) as [[m w1]|e0 w1] eqn:Er; [discriminate|]. intros [= <- <-].
  destruct (run_err_origin T V Z world _ _ _ _ _ _ Er) as [Hp|(d & w0 & w2 & Hd & Hp)].
  - eapply origin_local; eauto. unfold fill_path. rewrite Hp. reflexivity.
  - (* the error of a dependency: it has a path already, and the dependency was read with one lookup less *)
    replace (fill_path e0 (f_path T V f)) with e0 by (unfold fill_path; destruct (e_path e0); congruence).
    unfold depf in Hd. destruct (memz d (removez i lk)) eqn:Em; [|injection Hd as _ <-; contradiction (Hp eq_refl)].
    destruct (memz d (cached (add_wanted d w0))); [discriminate|].
    destruct (read_obj fuel fs bound (removez i lk) d (add_wanted d w0)) as [w3 [e1|]] eqn:Ei; [|discriminate].
    injection Hd as _ <-. apply memz_In in Em. apply (IH _ _ _ _ _ _ _ (fun j Hj => R j (removez_In _ _ _ Hj))) in Ei.
    + exact Ei.
    + apply R. eapply removez_In; eauto.
    + pose proof (removez_length d _ Em). lia.
Qed.

Theorem read_targets_origin : forall fuel fs lk ts w w' e,
  resolvable fs lk -> resolvable fs ts -> (length lk < fuel)%nat ->
  read_targets fuel fs lk ts w = (w', Some e) -> origin fs e.
Proof.
  intros fuel fs lk ts. induction ts as [|t r IH]; intros w w' e R Rt L; cbn.
  - discriminate.
  - assert (Rr : resolvable fs r) by (intros j Hj; apply Rt; right; exact Hj).
    destruct (memz t (pool w)); [apply IH; assumption|].
    destruct (read_obj fuel fs _ lk t w) as [w1 [e1|]] eqn:Eo.
    + intros H; inversion H; subst. eapply read_obj_origin; [exact R| | |exact Eo].
      * apply Rt. left. reflexivity.
      * pose proof (removez_length_le t lk). lia.
    + apply IH; assumption.
Qed.

Theorem read_ns_origin : forall fs lk ts ps e,
  resolvable fs lk -> resolvable fs ts -> (length lk <= length fs)%nat ->
  read_ns T V fs lk ts = (ps, Some e) -> origin fs e.
Proof.
  intros fs lk ts ps e R Rt L. unfold read_ns.
  destruct (read_targets (S (length fs)) fs lk ts world0) as [w r] eqn:E. intros H; inversion H; subst.
  eapply read_targets_origin; [exact R|exact Rt| |exact E]. lia.
Qed.

(* the @print directives of a definition: physical line and text *)
Fixpoint print_dirs (n : Z) (ls : list (line T V Z)) : list (Z * text) :=
  match ls with
  | [] => []
  | l :: r => (match own_print T V Z l with Some sh => [(n, sh)] | None => [] end) ++ print_dirs (n + 1 + l_extra T V Z l) r
  end.

End ReaderProofs.
