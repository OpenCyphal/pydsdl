(* Builder/RenderProofs.v - C03_render: the canonical text of a model is accepted and reads back as that model.
   Acceptance comes from a sufficient syntactic condition checked by an abstract run (okb: statements that only visit
   identifiers, attributes whose construction succeeds, directives in their places, exactly one serialization mode per
   section with @extent after the last attribute, unions with two variants); the content from the mirror theorem. *)
From Coq Require Import ZArith List Bool Lia.
From PV Require Import Builder.Lines Builder.Basics Builder.Spec Builder.Mirror Builder.Render.
Import ListNotations.
Open Scope Z_scope.

Section Accept.
Variables T V D W : Type.
Variable read_dep : D -> W -> W * option eloc.
Variable emit : Z -> text -> W -> W.

Notation st := (st T V W).
Notation line := (line T V D).
Notation schema := (schema T V).
Notation flush := (flush T V W).
Notation run_pre := (run_pre T V D W read_dep).
Notation step_line := (step_line T V D W read_dep emit).
Notation run_upto := (run_upto T V D W read_dep emit).
Notation next_line := (next_line T V D W).
Notation good := (good T V W).
Notation header := (header T V W).
Notation pending := (pending T V W).
Notation comment := (comment T V W).
Notation cur := (cur T V W).
Notation closed := (closed T V W).
Notation deprecated := (deprecated T V W).
Notation flushed := (flushed T V W).
Notation act_body := (act_body T V W emit).
Notation add_comment := (add_comment T V D W).

(* the abstract state of the checker *)
Record ab := Ab {
  a_seen : bool;            (* an attribute statement has been seen in this section *)
  a_mode : option mode;
  a_union : bool;
  a_nf : nat;               (* fields and paddings of this section *)
  a_dep : bool;
  a_resp : bool;            (* the marker has been seen *)
  a_reqok : bool            (* the request section can be closed *)
}.
Definition ab0 : ab := Ab false None false 0 false false true.
Definition sect_ok (m : option mode) (u : bool) (nf : nat) : bool :=
  match m with None => false | Some _ => negb (u && Nat.ltb nf 2) end.

Definition is_ident (p : pre D) : bool := match p with PIdent => true | _ => false end.

(* what a directive the guard lets pass does to the abstract state *)
Definition ab_dir (k : dkind) (g : darg) (a : ab) : ab :=
  match k, g with
  | KExtent, GInt z => Ab (a_seen a) (Some (MDelimited z)) (a_union a) (a_nf a) (a_dep a) (a_resp a) (a_reqok a)
  | KSealed, _ => Ab (a_seen a) (Some MSealed) (a_union a) (a_nf a) (a_dep a) (a_resp a) (a_reqok a)
  | KUnion, _ => Ab (a_seen a) (a_mode a) true (a_nf a) (a_dep a) (a_resp a) (a_reqok a)
  | KDeprecated, _ => Ab (a_seen a) (a_mode a) (a_union a) (a_nf a) true (a_resp a) (a_reqok a)
  | _, _ => a
  end.

(* directives pass the machine's own guard, read off the abstract state *)
Definition act_ab (act : action T V) (a : ab) : option ab :=
  match act with
  | XAttr at_ cf =>
      if cf then None else
      match a_mode a with
      | Some (MDelimited _) => None
      | _ => Some (Ab true (a_mode a) (a_union a) (if fieldlike T V at_ then S (a_nf a) else a_nf a) (a_dep a) (a_resp a) (a_reqok a))
      end
  | XDir k g _ => if dir_ok k g (a_mode a) (a_union a) (a_seen a) (a_dep a) (a_resp a) then Some (ab_dir k g a) else None
  | XMarker => if a_resp a then None else Some (Ab false None false 0 (a_dep a) true (sect_ok (a_mode a) (a_union a) (a_nf a)))
  end.

Definition step_ab (l : line) (a : ab) : option ab :=
  match l_stmt T V D l with
  | None => Some a
  | Some (Stmt pre act) => if forallb is_ident pre then act_ab act a else None
  end.

Fixpoint run_ab (ls : list line) (a : ab) : option ab :=
  match ls with
  | [] => Some a
  | l :: r => match step_ab l a with Some a' => run_ab r a' | None => None end
  end.

Definition okb (ls : list line) : bool :=
  match run_ab ls ab0 with
  | Some a => a_reqok a && sect_ok (a_mode a) (a_union a) (a_nf a)
  | None => false
  end.

(* the simulation: the abstract state records the shape of the schema as it will be once flushed *)

Definition shape (c : schema) : bool * option mode * bool * nat * bool :=
  (has_attrs T V c, c_mode T V c, c_union T V c, length (c_fields T V c), c_offset T V c).

Record abstracts (s : st) (a : ab) : Prop := {
  abs_good : good s;
  abs_shape : shape (flushed s) = (a_seen a, a_mode a, a_union a, a_nf a, false);
  abs_dep : a_dep a = deprecated s;
  abs_resp : a_resp a = is_some (closed s);
  abs_reqok : forall c, closed s = Some c -> a_reqok a = is_some (close T V c);
  abs_cf : forall at_ cf n, pending s = Some (at_, cf, n) -> cf = false
}.

Lemma abstracts_init : forall w, abstracts (init T V W w) ab0.
Proof. intros w. constructor; try reflexivity; try discriminate. exact (good_init T V W w). Qed.

(* abstracts looks at the flushed shape, the flags kept beside the schemas and the queued attribute only *)
Lemma abstracts_ext : forall s s' a, abstracts s a -> good s' -> shape (flushed s') = shape (flushed s) ->
  deprecated s' = deprecated s -> closed s' = closed s -> (pending s' = pending s \/ pending s' = None) -> abstracts s' a.
Proof.
  intros s s' a [G Hs Hd Hr Hq Hc] G' Es Ed Ec Ep. constructor; [exact G'|congruence..| |].
  - rewrite Ec. exact Hq.
  - intros at_ cf n E. destruct Ep as [Ep|Ep]; rewrite Ep in E; [eauto|discriminate].
Qed.

Lemma shape_add_attr : forall at_ d (c : schema), shape (Lines.add_attr T V at_ d c)
  = (true, c_mode T V c, c_union T V c, (if fieldlike T V at_ then S (length (c_fields T V c)) else length (c_fields T V c)), c_offset T V c).
Proof.
  intros at_ d c. unfold shape, Lines.add_attr, has_attrs. destruct (fieldlike T V at_); cbn.
  - rewrite app_length, Nat.add_1_r. destruct (c_fields T V c); reflexivity.
  - destruct (c_consts T V c), (c_fields T V c); reflexivity.
Qed.

Lemma shape_flushed_buf : forall b (s : st), shape (flushed (set_buf T V W b s)) = shape (flushed s).
Proof.
  intros b s. unfold Mirror.flushed. cbn. destruct (header s); [reflexivity|].
  destruct (pending s) as [[[at_ cf] n]|]; [|reflexivity]. rewrite !shape_add_attr. reflexivity.
Qed.

Lemma abstracts_add_comment : forall l s a, abstracts s a -> abstracts (add_comment l s) a.
Proof.
  intros l s a HR. unfold Lines.add_comment. destruct (l_comment T V D l); [|exact HR].
  apply (abstracts_ext s); [exact HR|exact (abs_good _ _ HR)|apply shape_flushed_buf|auto..].
Qed.

Lemma abstracts_next_line : forall l s a, abstracts s a -> abstracts (next_line l s) a.
Proof. intros l s a HR. apply (abstracts_ext s); [exact HR|exact (abs_good _ _ HR)|auto..]. Qed.

(* the flush of an abstracted state succeeds: the queued attribute can be committed *)
Lemma abstracts_flush : forall s a, abstracts s a -> exists f, flush s = Ok f /\ abstracts f a /\ header f = false /\ pending f = None /\ comment f = [].
Proof.
  intros s a HR.
  assert (Ef : exists f, flush s = Ok f).
  { destruct HR as [G Hs _ _ _ Hc]. revert Hs Hc. unfold Lines.flush, Mirror.flushed.
    destruct (header s); [eauto|]. destruct (pending s) as [[[at_ cf] n]|]; [|eauto]. intros Hs Hc.
    rewrite shape_add_attr in Hs. injection Hs as _ _ _ _ Ho. rewrite (Hc _ _ _ eq_refl). unfold commit_fails. rewrite Ho, andb_false_r. cbn. eauto. }
  destruct Ef as (f & Ef). destruct (flush_idle T V W _ _ (abs_good _ _ HR) Ef) as (H & P & B & C & F).
  destruct (frame_inv T V W _ _ F) as (F1 & F2 & _).
  exists f. split; [exact Ef|]. split; [|auto]. apply (abstracts_ext s); auto.
  - apply (good_header_false T V W), H.
  - rewrite (flushed_idle T V W _ H P), C. reflexivity.
Qed.

Lemma run_pre_idents : forall pre s a, abstracts s a -> forallb is_ident pre = true -> exists s2, run_pre pre s = Ok s2 /\ abstracts s2 a.
Proof.
  induction pre as [|p pre IH]; intros s a HR Hp; cbn.
  - exists s. auto.
  - cbn in Hp. apply andb_prop in Hp. destruct Hp as [Hp1 Hp2]. destruct p; try discriminate. cbn.
    destruct (abstracts_flush _ _ HR) as (f & -> & Rf & _). cbn. exact (IH f a Rf Hp2).
Qed.

Lemma sect_ok_close : forall c : schema, sect_ok (c_mode T V c) (c_union T V c) (length (c_fields T V c)) = is_some (close T V c).
Proof.
  intros c. unfold sect_ok, close. destruct (c_mode T V c); [|reflexivity].
  destruct (c_union T V c && Nat.ltb (length (c_fields T V c)) 2); reflexivity.
Qed.

Lemma abstracts_idle : forall (f : st) a, header f = false -> pending f = None ->
  shape (cur f) = (a_seen a, a_mode a, a_union a, a_nf a, false) -> a_dep a = deprecated f -> a_resp a = is_some (closed f) ->
  (forall c, closed f = Some c -> a_reqok a = is_some (close T V c)) -> abstracts f a.
Proof.
  intros f a H P Hs Hd Hr Hq. constructor; auto.
  - apply (good_header_false T V W), H.
  - rewrite (flushed_idle T V W _ H P). exact Hs.
  - intros at_ cf n E. rewrite P in E. discriminate.
Qed.

Lemma abstracts_dir : forall k g sh f a, abstracts f a -> header f = false -> pending f = None ->
  dir_ok k g (a_mode a) (a_union a) (a_seen a) (a_dep a) (a_resp a) = true ->
  Lines.do_dir T V W emit k g sh f = Ok (dir_upd T V W emit k g sh f) /\ abstracts (dir_upd T V W emit k g sh f) (ab_dir k g a).
Proof.
  intros k g sh f a [G Hs Hd Hr Hq Hc] H P Hok. rewrite (flushed_idle T V W _ H P) in Hs.
  pose proof Hs as Hs'. unfold shape in Hs'. injection Hs' as Hse Hm Hu Hn Ho. split.
  - rewrite do_dir_guarded, Hm, Hu, Hse, <- Hd, <- Hr, Hok. reflexivity.
  - destruct k, g; try discriminate Hok; apply abstracts_idle; auto;
      unfold shape; cbn; rewrite <- ?Hse, <- ?Hm, <- ?Hu, <- ?Hn, <- ?Ho; reflexivity.
Qed.

Lemma abstracts_act_body : forall act f a a', abstracts f a -> header f = false -> pending f = None -> comment f = [] ->
  act_ab act a = Some a' -> exists s3, act_body act f = Ok s3 /\ abstracts s3 a'.
Proof.
  intros act f a a' HR H P B Hab. destruct act as [at_ cf|k g sh|]; cbn in Hab |- *.
  - destruct HR as [G Hs Hd Hr Hq Hc]. rewrite (flushed_idle T V W _ H P) in Hs. unfold shape in Hs. injection Hs as Hse Hm Hu Hn Ho.
    destruct cf; [discriminate|]. rewrite <- Hm in Hab.
    assert (Ea : a' = Ab true (c_mode T V (cur f)) (a_union a) (if fieldlike T V at_ then S (a_nf a) else a_nf a) (a_dep a) (a_resp a) (a_reqok a)
                 /\ match c_mode T V (cur f) with Some (MDelimited _) => False | _ => True end).
    { destruct (c_mode T V (cur f)) as [[|z]|]; try discriminate; injection Hab as <-; auto. }
    destruct Ea as [-> NM]. eexists. split; [destruct (c_mode T V (cur f)) as [[|z]|]; [reflexivity|contradiction|reflexivity]|].
    constructor; cbn; auto.
    + apply (good_header_false T V W), H.
    + unfold Mirror.flushed. cbn. rewrite H, B, shape_add_attr, Hu, Hn, Ho. reflexivity.
    + intros ? ? ? E; injection E as _ <- _; reflexivity.
  - destruct (dir_ok k g _ _ _ _ _) eqn:Hok; [|discriminate]. injection Hab as <-.
    destruct (abstracts_dir k g sh f a HR H P Hok) as [E R']. eauto.
  - destruct HR as [G Hs Hd Hr Hq Hc]. rewrite (flushed_idle T V W _ H P) in Hs. unfold shape in Hs. injection Hs as Hse Hm Hu Hn Ho.
    rewrite Hr in Hab. destruct (closed f) eqn:Ecl; [discriminate|]. injection Hab as <-. eexists. split; [reflexivity|].
    constructor; cbn; auto; try discriminate.
    + intros _. exact P.
    + intros c0 E; injection E as <-. rewrite <- Hm, <- Hu, <- Hn. apply sect_ok_close.
Qed.

Lemma abstracts_step : forall l s a a', abstracts s a -> step_ab l a = Some a' -> exists s1, step_line l s = Ok s1 /\ abstracts s1 a'.
Proof.
  intros l s a a' HR. unfold step_ab. destruct (line_kind l) as [[[pre act] Hx]|[Hq|He]].
  - rewrite Hx, (step_line_stmt _ _ _ Hx). destruct (forallb is_ident pre) eqn:Ep; [|discriminate]. intros Hab.
    unfold Lines.do_stmt. cbn [s_pre s_act].
    destruct (run_pre_idents _ _ _ HR Ep) as (s2 & -> & R2). cbn [Lines.bind]. rewrite do_act_body.
    destruct (abstracts_flush _ _ R2) as (f & -> & Rf & H & P & B). cbn [Lines.bind].
    destruct (abstracts_act_body act f a a' Rf H P B Hab) as (s3 & -> & R3). cbn [Lines.bind].
    eexists. split; [reflexivity|]. apply abstracts_add_comment, R3.
  - rewrite (quiet_no_stmt T V D _ Hq), (step_line_quiet _ _ Hq). intros Hab; injection Hab as <-.
    eexists. split; [reflexivity|]. apply abstracts_add_comment, HR.
  - rewrite (proj2 (empty_loud T V D _ He)), (step_line_empty _ _ He). intros Hab; injection Hab as <-.
    destruct (abstracts_flush _ _ HR) as (f & Ef & Rf & _). eauto.
Qed.

Lemma abstracts_run : forall ls s a a', abstracts s a -> run_ab ls a = Some a' -> exists s', run_upto ls s = Ok s' /\ abstracts s' a'.
Proof.
  induction ls as [|l r IH]; intros s a a' HR; cbn [run_ab Basics.run_upto].
  - intros E; injection E as <-. exists s. auto.
  - destruct (step_ab l a) as [a1|] eqn:Ea; [|discriminate]. intros Hr.
    destruct (abstracts_step _ _ _ _ HR Ea) as (s1 & -> & R1). cbn [Lines.bind].
    apply (IH (next_line l s1) a1 a'); [apply abstracts_next_line; exact R1|exact Hr].
Qed.

Theorem okb_accepts : forall ls w, okb ls = true -> exists m w', Lines.run T V D W read_dep emit ls w = Ok (m, w').
Proof.
  intros ls w. unfold okb. destruct (run_ab ls ab0) as [a|] eqn:Ea; [|discriminate]. intros Hok.
  apply andb_prop in Hok. destruct Hok as [Hq Hs].
  destruct (abstracts_run _ _ _ _ (abstracts_init w) Ea) as (s' & E' & R'). rewrite run_finish, E'. cbn [Lines.bind].
  unfold Lines.finish. destruct (abstracts_flush _ _ R') as (f & -> & [G Hse Hd Hr Hqq Hc] & H & P & _). cbn [Lines.bind].
  rewrite (flushed_idle T V W _ H P) in Hse. injection Hse as _ Hm Hu Hn _.
  rewrite <- Hm, <- Hu, <- Hn, sect_ok_close in Hs.
  unfold Lines.finalize. destruct (closed f) as [c|] eqn:Ecl.
  - rewrite (Hqq c eq_refl) in Hq. destruct (close T V c); [|discriminate]. destruct (close T V (cur f)); [|discriminate]. eauto.
  - destruct (close T V (cur f)); [|discriminate]. eauto.
Qed.

End Accept.

Lemma join_split : forall d, exists seg segs, split10 d = seg :: segs /\ seg ++ concat (map (cons 10) segs) = d
  /\ (match d with [] => True | x :: _ => x <> 10 -> seg <> [] end).
Proof.
  induction d as [|x r IH].
  - exists [], []. cbn. auto.
  - destruct IH as (seg & segs & E & J & _). cbn. rewrite E. destruct (x =? 10) eqn:Ex.
    + apply Z.eqb_eq in Ex. subst x. exists [], (seg :: segs). cbn. rewrite J. split; [reflexivity|]. split; [reflexivity|]. intros H; congruence.
    + exists (x :: seg), segs. cbn. rewrite J. split; [reflexivity|]. split; [reflexivity|]. intros _; discriminate.
Qed.

Lemma fold_cappend_ne : forall segs buf, buf <> [] ->
  fold_left cappend (map (cons 32) segs) buf = buf ++ concat (map (cons 10) segs).
Proof.
  induction segs as [|seg segs IH]; intros buf NE; cbn.
  - rewrite app_nil_r. reflexivity.
  - assert (E : cappend buf (32 :: seg) = buf ++ 10 :: seg).
    { unfold cappend. destruct buf; [congruence|]. reflexivity. }
    rewrite E. rewrite IH; [|destruct buf; discriminate]. rewrite <- app_assoc. reflexivity.
Qed.

Lemma mkdoc_doc_lines : forall d, wf_doc d -> mkdoc (doc_lines d) = d.
Proof.
  intros d Hw. destruct d as [|x r]; [reflexivity|].
  unfold doc_lines. destruct (join_split (x :: r)) as (seg & segs & E & J & N). rewrite E.
  assert (Hx : x <> 10) by (intros ->; exact Hw).
  specialize (N Hx). unfold mkdoc, mkdoc_from. cbn [map fold_left].
  assert (E1 : cappend [] (32 :: seg) = seg) by reflexivity. rewrite E1.
  rewrite fold_cappend_ne; [exact J|exact N].
Qed.

Section RenderProofs.
Variables T V D W : Type.
Variable read_dep : D -> W -> W * option eloc.
Variable emit : Z -> text -> W -> W.

Notation line := (line T V D).
Notation cline := (cline T V D).
Notation sline := (sline T V D).
Notation render_attr := (render_attr T V D).
Notation render_sect := (render_sect T V D).
Notation render := (render T V D).
Notation mode_line := (mode_line T V D).
Notation lead := (lead T V D).
Notation attrs_of := (attrs_of T V D).
Notation has_dir := (has_dir T V D).
Notation mode_dirs := (mode_dirs T V D).
Notation split_marker := (split_marker T V D).
Notation run_ab := (run_ab T V D).
Notation step_ab := (step_ab T V D).

Definition starts_stmt (ls : list line) : Prop := match ls with l :: _ => l_stmt T V D l <> None | [] => False end.

Lemma lead_clines : forall cs rest, lead (map cline cs ++ rest) = cs ++ lead rest.
Proof. induction cs as [|c cs IH]; intros rest; cbn; [reflexivity|]. rewrite IH. reflexivity. Qed.

Lemma lead_starts : forall ls, starts_stmt ls -> lead ls = [].
Proof. intros [|l r] H; [contradiction|]. cbn in *. unfold quietb. destruct (l_stmt T V D l); [reflexivity|congruence]. Qed.

Lemma attrs_of_clines : forall cs rest, attrs_of (map cline cs ++ rest) = attrs_of rest.
Proof. induction cs as [|c cs IH]; intros rest; cbn; [reflexivity|]. apply IH. Qed.

Lemma starts_render_attr : forall ad rest, starts_stmt (render_attr ad ++ rest).
Proof. intros ad rest. unfold Render.render_attr. destruct (doc_lines (snd ad)); cbn; discriminate. Qed.

Lemma starts_flat : forall ads rest, starts_stmt rest -> starts_stmt (flat_map render_attr ads ++ rest).
Proof. intros [|ad ads] rest H; [exact H|]. cbn. rewrite <- app_assoc. apply starts_render_attr. Qed.

Lemma attrs_of_render_attr : forall ad rest, wf_doc (snd ad) -> starts_stmt rest ->
  attrs_of (render_attr ad ++ rest) = ad :: attrs_of rest.
Proof.
  intros [a d] rest Hw Hs. unfold Render.render_attr. cbn [fst snd].
  pose proof (mkdoc_doc_lines d Hw) as Hd. destruct (doc_lines d) as [|c cs] eqn:Ed.
  - cbn. rewrite (lead_starts _ Hs). cbn in Hd. rewrite <- Hd. reflexivity.
  - cbn [app attrs_of Spec.attrs_of]. unfold attr_of. cbn [l_stmt Render.sline].
    rewrite attrs_of_clines. f_equal. f_equal. unfold Spec.own at 1. cbn [l_comment Render.sline].
    rewrite lead_clines, (lead_starts _ Hs), app_nil_r. exact Hd.
Qed.

Lemma attrs_of_flat : forall ads rest, Forall (fun ad => wf_doc (snd ad)) ads -> starts_stmt rest ->
  attrs_of (flat_map render_attr ads ++ rest) = ads ++ attrs_of rest.
Proof.
  induction ads as [|ad ads IH]; intros rest F Hs; [reflexivity|].
  inversion F as [|? ? F1 F2]; subst. cbn [flat_map]. rewrite <- app_assoc.
  rewrite attrs_of_render_attr; [|exact F1|apply starts_flat; exact Hs]. rewrite IH; auto.
Qed.

(* comment lines and attribute lines hold neither a directive nor the marker *)
Definition plain (l : line) : Prop := dir_of T V D l = None /\ is_marker T V D l = false.

Lemma plain_lines : forall ls, Forall plain ls ->
  (forall k, has_dir k ls = false) /\ mode_dirs ls = [] /\ no_marker T V D ls.
Proof.
  intros ls F. induction F as [|l r [Hd Hm] _ (IH1 & IH2 & IH3)]; [repeat split; constructor|].
  unfold Spec.has_dir in *. cbn. rewrite Hd, IH2. repeat split; [exact IH1|]. constructor; assumption.
Qed.

Lemma plain_clines : forall cs, Forall plain (map cline cs).
Proof. intros cs. apply Forall_map, Forall_forall. intros c _. split; reflexivity. Qed.

Lemma plain_attrs : forall ads, Forall plain (flat_map render_attr ads).
Proof.
  intros ads. apply Forall_flat_map, Forall_forall. intros ad _. unfold Render.render_attr.
  destruct (doc_lines (snd ad)); constructor; [split; reflexivity|constructor|split; reflexivity|apply plain_clines].
Qed.

Lemma mode_dirs_app : forall a b, mode_dirs (a ++ b) = mode_dirs a ++ mode_dirs b.
Proof. induction a as [|l a IH]; intros b; cbn; [reflexivity|]. rewrite IH, app_assoc. reflexivity. Qed.

Definition sect_mode (k : sect T V) : mode := match k_extent T V k with Some z => MDelimited z | None => MSealed end.

Lemma has_dir_sect : forall dep k,
  has_dir KUnion (render_sect dep k) = k_union T V k /\ has_dir KDeprecated (render_sect dep k) = dep.
Proof.
  intros dep k. unfold Render.render_sect. rewrite !(has_dir_app T V D).
  rewrite !(proj1 (plain_lines _ (plain_clines _))), !(proj1 (plain_lines _ (plain_attrs _))).
  unfold Render.mode_line. destruct dep, (k_union T V k), (k_extent T V k); split; reflexivity.
Qed.

Lemma mode_dirs_sect : forall dep k, mode_dirs (render_sect dep k) = [sect_mode k].
Proof.
  intros dep k. unfold Render.render_sect. rewrite !mode_dirs_app.
  rewrite (proj1 (proj2 (plain_lines _ (plain_clines _)))), (proj1 (proj2 (plain_lines _ (plain_attrs _)))).
  unfold Render.mode_line, sect_mode. destruct dep, (k_union T V k), (k_extent T V k); reflexivity.
Qed.

Lemma no_marker_app : forall a b, no_marker T V D a -> no_marker T V D b -> no_marker T V D (a ++ b).
Proof. intros. apply Forall_app. split; assumption. Qed.

Lemma no_marker_sect : forall dep k, no_marker T V D (render_sect dep k).
Proof.
  intros dep k. unfold Render.render_sect. repeat apply no_marker_app.
  - apply (plain_lines _ (plain_clines _)).
  - destruct dep; repeat constructor.
  - destruct (k_union T V k); repeat constructor.
  - apply (plain_lines _ (plain_attrs _)).
  - unfold Render.mode_line. destruct (k_extent T V k); repeat constructor.
Qed.

(* Render.render_sect without its header comments (render_sect_tail): it starts with a statement, so no comment leads it *)
Definition sect_tail (dep : bool) (k : sect T V) : list line :=
  (if dep then [sline (XDir KDeprecated GNone []) None] else [])
  ++ (if k_union T V k then [sline (XDir KUnion GNone []) None] else [])
  ++ flat_map render_attr (k_fields T V k ++ k_consts T V k)
  ++ [mode_line k].

Lemma starts_mode_line : forall k, starts_stmt [mode_line k].
Proof. intros k. cbn. discriminate. Qed.

Lemma starts_sect_tail : forall dep k, starts_stmt (sect_tail dep k).
Proof.
  intros dep k. unfold sect_tail. destruct dep; [cbn; discriminate|]. destruct (k_union T V k); [cbn; discriminate|].
  cbn [app]. apply starts_flat. apply starts_mode_line.
Qed.

Lemma render_sect_tail : forall dep k, render_sect dep k = map cline (doc_lines (k_doc T V k)) ++ sect_tail dep k.
Proof. reflexivity. Qed.

Lemma lead_sect : forall dep k, lead (render_sect dep k) = doc_lines (k_doc T V k).
Proof. intros dep k. rewrite render_sect_tail, lead_clines, (lead_starts _ (starts_sect_tail dep k)), app_nil_r. reflexivity. Qed.

Lemma attrs_of_sect : forall dep k, Forall (fun ad => wf_doc (snd ad)) (k_fields T V k ++ k_consts T V k) ->
  attrs_of (render_sect dep k) = k_fields T V k ++ k_consts T V k.
Proof.
  intros dep k Hw. rewrite render_sect_tail, attrs_of_clines.
  assert (Am : attrs_of [mode_line k] = []) by (unfold Render.mode_line; destruct (k_extent T V k); reflexivity).
  unfold sect_tail. destruct dep; destruct (k_union T V k); cbn [app attrs_of Spec.attrs_of];
    unfold attr_of; cbn [l_stmt Render.sline s_act];
    rewrite (attrs_of_flat _ _ Hw (starts_mode_line k)), Am, app_nil_r; reflexivity.
Qed.

Lemma split_no_marker : forall ls, no_marker T V D ls -> split_marker ls = (ls, None).
Proof.
  induction ls as [|l r IH]; intros M; [reflexivity|]. inversion M as [|? ? M1 M2]; subst. cbn. rewrite M1, (IH M2). reflexivity.
Qed.

Lemma split_at_marker : forall a ml b, no_marker T V D a -> is_marker T V D ml = true -> split_marker (a ++ ml :: b) = (a, Some (ml, b)).
Proof.
  induction a as [|l a IH]; intros ml b M Hm.
  - cbn. rewrite Hm. reflexivity.
  - inversion M as [|? ? M1 M2]; subst. cbn. rewrite M1, (IH _ _ M2 Hm). reflexivity.
Qed.

Lemma filter_all : forall (A : Type) (f : A -> bool) l, Forall (fun x => f x = true) l -> filter f l = l.
Proof. intros A f l F. induction F as [|x l H _ IH]; cbn; [reflexivity|]. rewrite H, IH. reflexivity. Qed.
Lemma filter_none : forall (A : Type) (f : A -> bool) l, Forall (fun x => f x = false) l -> filter f l = [].
Proof. intros A f l F. induction F as [|x l H _ IH]; cbn; [reflexivity|]. rewrite H, IH. reflexivity. Qed.

Lemma filter_field_app : forall (fs cs : list (attr T V * text)),
  Forall (fun ad => fieldlike T V (fst ad) = true) fs -> Forall (fun ad => fieldlike T V (fst ad) = false) cs ->
  filter (is_field T V) (fs ++ cs) = fs /\ filter (is_const T V) (fs ++ cs) = cs.
Proof.
  intros fs cs Ff Fc. rewrite !filter_app. unfold is_field, is_const.
  rewrite (filter_all _ _ fs Ff), (filter_none _ _ cs Fc), app_nil_r.
  rewrite (filter_none _ (fun ad => negb (fieldlike T V (fst ad))) fs), (filter_all _ (fun ad => negb (fieldlike T V (fst ad))) cs).
  - auto.
  - eapply Forall_impl; [|exact Fc]. cbn. intros a H. rewrite H. reflexivity.
  - eapply Forall_impl; [|exact Ff]. cbn. intros a H. rewrite H. reflexivity.
Qed.

Lemma wf_sect_attrs : forall k, wf_sect T V k ->
  Forall (fun ad => fieldlike T V (fst ad) = true) (k_fields T V k)
  /\ Forall (fun ad => fieldlike T V (fst ad) = false) (k_consts T V k)
  /\ Forall (fun ad => wf_doc (snd ad)) (k_fields T V k ++ k_consts T V k).
Proof.
  intros k (Wf & Wc & _). repeat split; [| |apply Forall_app; split];
    (eapply Forall_impl; [|eassumption]); cbn; tauto.
Qed.

Lemma mirrors_render : forall dep k k', wf_sect T V k -> mirrors T V D (lead (render_sect dep k)) (render_sect dep k) k' -> k' = k.
Proof.
  intros dep k k' Wk (M1 & M2 & M3 & M4 & mo & M5 & M6).
  destruct (wf_sect_attrs k Wk) as (Ff & Fc & Hw). destruct (filter_field_app _ _ Ff Fc) as [F1 F2].
  rewrite (attrs_of_sect dep k Hw) in M1, M2. rewrite F1 in M1. rewrite F2 in M2.
  rewrite lead_sect, (mkdoc_doc_lines _ (proj1 (proj2 (proj2 Wk)))) in M3.
  rewrite (proj1 (has_dir_sect dep k)) in M4. rewrite mode_dirs_sect in M5. inversion M5; subst mo.
  destruct k' as [u' e' d' f' c'], k as [u e d f c]. unfold sect_mode in M6. cbn in *. subst.
  f_equal. destruct e; reflexivity.
Qed.

Lemma run_ab_app : forall a b x, run_ab (a ++ b) x = match run_ab a x with Some y => run_ab b y | None => None end.
Proof.
  induction a as [|l a IH]; intros b x; cbn; [reflexivity|]. destruct (step_ab l x); [apply IH|reflexivity].
Qed.

Lemma run_ab_clines : forall cs a, run_ab (map cline cs) a = Some a.
Proof. induction cs as [|c cs IH]; intros a; cbn; [reflexivity|]. apply IH. Qed.

Definition nfl (ads : list (attr T V * text)) : nat := length (filter (is_field T V) ads).

Lemma run_ab_attr : forall ad sn u nf d r q,
  run_ab (render_attr ad) (Ab sn None u nf d r q) = Some (Ab true None u (if fieldlike T V (fst ad) then S nf else nf) d r q).
Proof.
  intros ad sn u nf d r q. unfold Render.render_attr. destruct (doc_lines (snd ad)) as [|c cs]; cbn.
  - reflexivity.
  - apply run_ab_clines.
Qed.

Lemma run_ab_flat : forall ads sn u nf d r q, exists sn',
  run_ab (flat_map render_attr ads) (Ab sn None u nf d r q) = Some (Ab sn' None u (nf + nfl ads) d r q).
Proof.
  induction ads as [|ad ads IH]; intros sn u nf d r q.
  - exists sn. cbn. rewrite Nat.add_0_r. reflexivity.
  - cbn [flat_map]. rewrite run_ab_app, run_ab_attr.
    destruct (IH true u (if fieldlike T V (fst ad) then S nf else nf) d r q) as (sn' & E). exists sn'. rewrite E.
    unfold nfl, is_field. cbn [filter]. destruct (fieldlike T V (fst ad)); cbn [length]; rewrite ?Nat.add_succ_r; reflexivity.
Qed.

Lemma run_ab_sect : forall dep k d r q, (dep = true -> d = false /\ r = false) ->
  exists sn', run_ab (render_sect dep k) (Ab false None false 0 d r q)
              = Some (Ab sn' (Some (sect_mode k)) (k_union T V k) (nfl (k_fields T V k ++ k_consts T V k)) (d || dep) r q).
Proof.
  intros dep k d r q Hd. unfold Render.render_sect.
  rewrite run_ab_app, run_ab_clines.
  assert (E1 : run_ab (if dep then [sline (XDir KDeprecated GNone []) None] else []) (Ab false None false 0 d r q)
               = Some (Ab false None false 0 (d || dep) r q)).
  { destruct dep; cbn; [|rewrite orb_false_r; reflexivity]. destruct (Hd eq_refl) as [-> ->]. reflexivity. }
  rewrite run_ab_app, E1.
  assert (E2 : run_ab (if k_union T V k then [sline (XDir KUnion GNone []) None] else []) (Ab false None false 0 (d || dep) r q)
               = Some (Ab false None (k_union T V k) 0 (d || dep) r q)).
  { destruct (k_union T V k); reflexivity. }
  rewrite run_ab_app, E2, run_ab_app.
  destruct (run_ab_flat (k_fields T V k ++ k_consts T V k) false (k_union T V k) 0 (d || dep) r q) as (sn' & E3). rewrite E3.
  exists sn'. unfold Render.mode_line, sect_mode. destruct (k_extent T V k); reflexivity.
Qed.

Lemma nfl_wf : forall k, wf_sect T V k -> nfl (k_fields T V k ++ k_consts T V k) = length (k_fields T V k).
Proof.
  intros k Wk. destruct (wf_sect_attrs k Wk) as (Ff & Fc & _). unfold nfl.
  rewrite (proj1 (filter_field_app _ _ Ff Fc)). reflexivity.
Qed.

Lemma sect_ok_wf : forall k mo, wf_sect T V k -> sect_ok (Some mo) (k_union T V k) (length (k_fields T V k)) = true.
Proof.
  intros k mo (_ & _ & _ & Wu). unfold sect_ok. destruct (k_union T V k); [|reflexivity].
  specialize (Wu eq_refl). destruct (Nat.ltb_spec (length (k_fields T V k)) 2); [lia|reflexivity].
Qed.

Lemma okb_render : forall m, wf_model T V m -> okb T V D (render m) = true.
Proof.
  intros m [Wq Ws]. unfold okb, Render.render. rewrite run_ab_app.
  destruct (run_ab_sect (m_deprecated T V m) (m_req T V m) false false true) as (s1 & E1); [auto|].
  unfold ab0. rewrite E1. rewrite (nfl_wf _ Wq). cbn [orb].
  destruct (m_resp T V m) as [k|].
  - cbn [run_ab step_ab act_ab l_stmt Render.sline forallb a_resp a_mode a_union a_nf a_dep].
    destruct (run_ab_sect false k (m_deprecated T V m) true
                (sect_ok (Some (sect_mode (m_req T V m))) (k_union T V (m_req T V m)) (length (k_fields T V (m_req T V m)))))
      as (s2 & E2); [discriminate|].
    rewrite E2. cbn [a_reqok a_mode a_union a_nf]. rewrite (nfl_wf _ Ws), !sect_ok_wf; auto.
  - cbn [run_ab a_reqok a_mode a_union a_nf]. rewrite sect_ok_wf; auto.
Qed.

(* C03_render *)
Theorem render_reads_back : forall m w, wf_model T V m -> exists w', Lines.run T V D W read_dep emit (render m) w = Ok (m, w').
Proof.
  intros m w Wm. destruct (okb_accepts T V D W read_dep emit _ w (okb_render m Wm)) as (m' & w' & E).
  exists w'. rewrite E. f_equal. f_equal.
  destruct (mirror T V D W read_dep emit _ _ _ _ E) as [Hd Hs]. destruct Wm as [Wq Ws].
  unfold Render.render in Hd, Hs. rewrite (has_dir_app T V D), (proj2 (has_dir_sect _ _)) in Hd.
  destruct (m_resp T V m) as [k|] eqn:Er.
  - rewrite (split_at_marker _ (sline XMarker None) _ (no_marker_sect _ _) eq_refl) in Hs.
    destruct Hs as (Mq & k' & Ek' & Mk & _).
    change (sline XMarker None :: render_sect false k) with ([sline XMarker None] ++ render_sect false k) in Hd.
    rewrite (has_dir_app T V D), (proj2 (has_dir_sect _ _)) in Hd. cbn in Hd. rewrite !orb_false_r in Hd.
    pose proof (mirrors_render _ _ _ Wq Mq) as Hq. pose proof (mirrors_render _ _ _ Ws Mk) as Hk.
    destruct m' as [d' q' r'], m as [d q r]. cbn in *. subst. reflexivity.
  - rewrite app_nil_r in Hs. rewrite (split_no_marker _ (no_marker_sect _ _)) in Hs. destruct Hs as (Mq & Hn).
    cbn in Hd. rewrite orb_false_r in Hd. pose proof (mirrors_render _ _ _ Wq Mq) as Hq.
    destruct m' as [d' q' r'], m as [d q r]. cbn in *. subst. reflexivity.
Qed.

End RenderProofs.
