(* Builder/Basics.v - elementary facts about the line machine: post-conditions of results (sat), what a line of each kind
   does, everything flush and the handlers can do, reachable states are good, a run splits at any line and is the prefix
   run followed by finish. *)
From Coq Require Import ZArith List Bool.
From PV Require Import Builder.Lines Builder.Spec.
Import ListNotations.
Open Scope Z_scope.

Section Basics.
Variables T V D W : Type.
Variable read_dep : D -> W -> W * option eloc.
Variable emit : Z -> text -> W -> W.

Notation st := (st T V W).
Notation line := (line T V D).
Notation flush := (flush T V W).
Notation step_line := (step_line T V D W read_dep emit).
Notation run_from := (run_from T V D W read_dep emit).
Notation next_line := (next_line T V D W).
Notation finish := (finish T V W).
Notation finalize := (finalize T V W).
Notation run := (run T V D W read_dep emit).
Notation res := (res W).
Notation bind := (bind W).
Notation add_comment := (add_comment T V D W).

(* the state in front of the line that follows ls (the line counter has been advanced past every line of ls) *)
Fixpoint run_upto (ls : list line) (s : st) : res st :=
  match ls with
  | [] => Ok s
  | l :: r => bind (step_line l s) (fun s1 => run_upto r (next_line l s1))
  end.

Lemma bind_assoc : forall (A B C : Type) (r : res A) (f : A -> res B) (g : B -> res C),
  bind (bind r f) g = bind r (fun a => bind (f a) g).
Proof. intros. destruct r; reflexivity. Qed.

Lemma bind_ok : forall (A : Type) (r : res A), bind r (fun a => Ok a) = r.
Proof. intros. destruct r; reflexivity. Qed.

Lemma bind_ext : forall (A B : Type) (r : res A) (f g : A -> res B), (forall a, f a = g a) -> bind r f = bind r g.
Proof. intros. destruct r; simpl; auto. Qed.

Lemma bind_inv : forall (A B : Type) (r : res A) (f : A -> res B) b, bind r f = Ok b -> exists a, r = Ok a /\ f a = Ok b.
Proof. intros A B [a|] f b E; [eauto|discriminate]. Qed.

(* a result r satisfies P (of its value) and Q (of its error and the world that comes with it) *)
Definition sat {A : Type} (r : res A) (P : A -> Prop) (Q : eloc -> W -> Prop) : Prop :=
  match r with Ok a => P a | Err e w => Q e w end.

Lemma sat_bind {A B : Type} {r : res A} {f : A -> res B} {P : A -> Prop} {P' : B -> Prop} {Q} :
  sat r P Q -> (forall a, r = Ok a -> P a -> sat (f a) P' Q) -> sat (bind r f) P' Q.
Proof. destruct r as [a|e w]; intros H Hf; [exact (Hf a eq_refl H)|exact H]. Qed.

Lemma sat_mono {A : Type} {r : res A} {P P' : A -> Prop} {Q Q' : eloc -> W -> Prop} :
  sat r P Q -> (forall a, P a -> P' a) -> (forall e w, Q e w -> Q' e w) -> sat r P' Q'.
Proof. destruct r; cbn; auto. Qed.

(* two results agree up to R: both succeed in related states, or both fail (possibly at different lines) in the same world *)
Definition res_rel (R : st -> st -> Prop) (r1 r2 : res st) : Prop :=
  match r1, r2 with
  | Ok s1, Ok s2 => R s1 s2
  | Err _ w1, Err _ w2 => w1 = w2
  | _, _ => False
  end.

Lemma bind_res_rel : forall (R R' : st -> st -> Prop) (r1 r2 : res st) (f g : st -> res st),
  res_rel R r1 r2 -> (forall s1 s2, R s1 s2 -> res_rel R' (f s1) (g s2)) -> res_rel R' (bind r1 f) (bind r2 g).
Proof. intros R R' [s1|e1 w1] [s2|e2 w2] f g H K; cbn in *; try contradiction; auto. Qed.

Lemma res_rel_impl : forall (R R' : st -> st -> Prop) (r1 r2 : res st),
  (forall s1 s2, R s1 s2 -> R' s1 s2) -> res_rel R r1 r2 -> res_rel R' r1 r2.
Proof. intros R R' [s1|e1 w1] [s2|e2 w2] K H; cbn in *; auto. Qed.

Lemma run_from_split : forall p l r s, run_from (p ++ l :: r) s = bind (run_upto p s) (run_from (l :: r)).
Proof.
  induction p as [|x p IH]; intros l r s.
  - reflexivity.
  - change ((x :: p) ++ l :: r) with (x :: (p ++ l :: r)).
    cbn [Lines.run_from run_upto]. rewrite bind_assoc. apply bind_ext. intros s1.
    destruct (p ++ l :: r) eqn:E.
    + destruct p; discriminate.
    + rewrite <- E. apply IH.
Qed.

Lemma run_upto_app : forall p q s, run_upto (p ++ q) s = bind (run_upto p s) (run_upto q).
Proof.
  induction p as [|x p IH]; intros q s.
  - reflexivity.
  - cbn [app run_upto]. rewrite bind_assoc. apply bind_ext. intros. apply IH.
Qed.

Lemma run_from_last : forall p l s, run_from (p ++ [l]) s = bind (run_upto p s) (step_line l).
Proof.
  intros. rewrite run_from_split. apply bind_ext. intros a. cbn [Lines.run_from]. apply bind_ok.
Qed.

Notation step_pre := (step_pre T V D W read_dep).
Notation run_pre := (run_pre T V D W read_dep).
Notation do_dir := (do_dir T V W emit).
Notation do_act := (do_act T V W emit).
Notation do_stmt := (do_stmt T V D W read_dep emit).
Notation quietb := (quietb T V D).

(* the part of Lines.do_act after its flush (do_act_body): what the handler of the statement does *)
Definition act_body (x : action T V) (s1 : st) : res st :=
  match x with
  | XAttr a cf =>
      match c_mode T V (cur T V W s1) with
      | Some (MDelimited _) => raise_here T V W s1
      | _ => Ok (set_pending T V W (Some (a, cf, line_no T V W s1)) s1)
      end
  | XDir k g shown => do_dir k g shown s1
  | XMarker =>
      let s2 := set_header T V W true s1 in
      match closed T V W s2 with
      | Some _ => raise_here T V W s2
      | None => Ok (open_response T V W s2)
      end
  end.

Lemma do_act_body : forall x s, do_act x s = bind (flush s) (act_body x).
Proof. reflexivity. Qed.

Lemma line_kind : forall l : line,
  (exists x, l_stmt T V D l = Some x) \/ quietb l = true \/ is_empty_text T V D l = true.
Proof.
  intros l. unfold Spec.quietb. destruct (l_stmt T V D l); [eauto|]. destruct (is_empty_text T V D l); auto.
Qed.

Lemma step_line_stmt : forall (l : line) x s, l_stmt T V D l = Some x ->
  step_line l s = bind (do_stmt x s) (fun s1 => Ok (add_comment l s1)).
Proof. intros l x s E. unfold Lines.step_line, is_empty_text. rewrite E. reflexivity. Qed.

Lemma step_line_quiet : forall (l : line) s, quietb l = true -> step_line l s = Ok (add_comment l s).
Proof.
  intros l s. unfold Spec.quietb, Lines.step_line. destruct (l_stmt T V D l); [discriminate|].
  destruct (is_empty_text T V D l); [discriminate|reflexivity].
Qed.

Lemma step_line_empty : forall (l : line) s, is_empty_text T V D l = true -> step_line l s = flush s.
Proof.
  intros l s. unfold Lines.step_line, Lines.add_comment, is_empty_text.
  destruct (l_stmt T V D l); [discriminate|]. destruct (l_comment T V D l); [discriminate|].
  intros ->. reflexivity.
Qed.

Lemma flush_set_line : forall n (s : st),
  flush (set_line T V W n s) = match flush s with Ok s1 => Ok (set_line T V W n s1) | Err e w => Err e w end.
Proof.
  intros n [c h p cl cu d ln w]. unfold Lines.flush. cbn.
  destruct h.
  - reflexivity.
  - destruct p as [[[a cf] k]|]; [|reflexivity].
    destruct (commit_fails T V a cf _); reflexivity.
Qed.

Lemma flush_set_world : forall w' (s : st),
  flush (set_world T V W w' s) = match flush s with Ok s1 => Ok (set_world T V W w' s1) | Err e _ => Err e w' end.
Proof.
  intros w' [c h p cl cu d ln w]. unfold Lines.flush. cbn.
  destruct h.
  - reflexivity.
  - destruct p as [[[a cf] k]|]; [|reflexivity].
    destruct (commit_fails T V a cf _); reflexivity.
Qed.

(* everything flush can do: what a successful flush leaves alone and the fixed part of what it leaves behind, and the one
   way it fails - constructing the queued attribute, reported at the line remembered with it (fix beef4c7) *)
Inductive flush_spec (s : st) : res st -> Prop :=
| flush_ok : forall f,
    header T V W f = false /\ comment T V W f = [] /\ pending T V W f = (if header T V W s then pending T V W s else None)
    /\ closed T V W f = closed T V W s /\ deprecated T V W f = deprecated T V W s
    /\ line_no T V W f = line_no T V W s /\ world T V W f = world T V W s -> flush_spec s (Ok f)
| flush_err : forall a cf n, header T V W s = false -> pending T V W s = Some (a, cf, n) ->
    commit_fails T V a cf (cur T V W s) = true -> flush_spec s (Err (ELoc None (Some n)) (world T V W s)).

Lemma flushP : forall s : st, flush_spec s (flush s).
Proof.
  intros [c h p cl cu d ln w]. unfold Lines.flush. cbn.
  destruct h; [constructor; cbn; auto 10|].
  destruct p as [[[a cf] n]|]; [|constructor; cbn; auto 10].
  destruct (commit_fails T V a cf cu) eqn:C; [eapply flush_err; cbn; eauto|constructor; cbn; auto 10].
Qed.

Lemma flush_err_world : forall (s : st) e w, flush s = Err e w -> w = world T V W s.
Proof. intros s e w. destruct (flushP s); [discriminate|]. intros E; injection E as _ <-; reflexivity. Qed.

Lemma flush_frame : forall s f : st, flush s = Ok f ->
  header T V W f = false /\ comment T V W f = [] /\ pending T V W f = (if header T V W s then pending T V W s else None)
  /\ closed T V W f = closed T V W s /\ deprecated T V W f = deprecated T V W s
  /\ line_no T V W f = line_no T V W s /\ world T V W f = world T V W s.
Proof. intros s f. destruct (flushP s) as [f' H|]; [|discriminate]. intros E; injection E as <-. exact H. Qed.

Lemma flush_good : forall (s s1 : st), flush s = Ok s1 -> header T V W s1 = false.
Proof. intros s s1 E. apply (flush_frame _ _ E). Qed.

(* reachable states never hold a queued attribute while the header flag is up *)
Definition good (s : st) : Prop := header T V W s = true -> pending T V W s = None.

Lemma good_init : forall w, good (init T V W w).
Proof. intros w _. reflexivity. Qed.

Lemma good_header_false : forall s : st, header T V W s = false -> good s.
Proof. intros s H G. rewrite H in G. discriminate. Qed.

Lemma flush_no_pending : forall s f : st, good s -> flush s = Ok f -> pending T V W f = None.
Proof.
  intros s f G E. destruct (flush_frame _ _ E) as (_ & _ & P & _). rewrite P.
  destruct (header T V W s) eqn:H; [exact (G H)|reflexivity].
Qed.

Lemma idle_flush : forall s : st, header T V W s = false -> pending T V W s = None -> comment T V W s = [] -> flush s = Ok s.
Proof. intros [c h p cl cu d ln w]. cbn. intros -> -> ->. reflexivity. Qed.

Lemma flush_idem : forall (s s1 : st), good s -> flush s = Ok s1 -> flush s1 = Ok s1.
Proof.
  intros s s1 G E. destruct (flush_frame _ _ E) as (H & B & _).
  exact (idle_flush s1 H (flush_no_pending _ _ G E) B).
Qed.

Lemma step_pre_good : forall p (s s1 : st), good s -> step_pre p s = Ok s1 -> good s1.
Proof.
  intros p s s1 G. destruct p; cbn.
  - intros E. apply good_header_false. eapply flush_good; eauto.
  - intros E. inversion E. exact G.
  - discriminate.
  - destruct (read_dep d (world T V W s)) as [w [e|]]; [discriminate|]. intros E. inversion E. exact G.
Qed.

Lemma run_pre_good : forall ps (s s1 : st), good s -> run_pre ps s = Ok s1 -> good s1.
Proof.
  induction ps as [|p ps IH]; intros s s1 G; cbn.
  - intros E. inversion E. subst. exact G.
  - destruct (step_pre p s) eqn:E1; [|discriminate]. cbn. apply IH. eapply step_pre_good; eauto.
Qed.

Definition is_some {A : Type} (o : option A) : bool := match o with Some _ => true | None => false end.

(* A directive is a guarded update.  Whether it is allowed depends on its argument, the mode, the union flag, whether the
   section has attributes, the deprecation flag and whether the request section is closed; what it does, on its kind. *)
Definition dir_ok (k : dkind) (g : darg) (mo : option mode) (u ha d cl : bool) : bool :=
  match k, g with
  | KPrint, _ | KAssert, GBool true => true
  | KExtent, GInt _ | KSealed, GNone => negb (is_some mo)
  | KUnion, GNone => negb (u || ha)
  | KDeprecated, GNone => negb (d || cl || ha)
  | _, _ => false
  end.

Definition dir_upd (k : dkind) (g : darg) (sh : text) (s : st) : st :=
  match k, g with
  | KPrint, _ => set_world T V W (emit (line_no T V W s) sh (world T V W s)) s
  | KExtent, GInt z => with_cur T V W (set_mode T V (MDelimited z)) s
  | KSealed, _ => with_cur T V W (set_mode T V MSealed) s
  | KUnion, _ => with_cur T V W (set_union T V) s
  | KDeprecated, _ => set_deprecated T V W s
  | _, _ => s
  end.

Lemma do_dir_guarded : forall k g sh (s : st),
  do_dir k g sh s =
  if dir_ok k g (c_mode T V (cur T V W s)) (c_union T V (cur T V W s)) (has_attrs T V (cur T V W s))
            (deprecated T V W s) (is_some (closed T V W s))
  then Ok (dir_upd k g sh s) else raise_here T V W s.
Proof.
  intros k g sh s. unfold Lines.do_dir, dir_ok, dir_upd, is_some.
  destruct k, g as [|[|]| |]; try reflexivity;
    try (destruct (c_mode T V (cur T V W s)); reflexivity); destruct (_ || _); reflexivity.
Qed.

(* everything a directive handler can do: it leaves the comment buffer, the header flag, the queue, the counter and the
   request section alone, touches the world only to print, and raises here *)
Lemma do_dir_sat : forall k g sh (s : st),
  sat (do_dir k g sh s)
      (fun s1 => header T V W s1 = header T V W s /\ pending T V W s1 = pending T V W s /\ comment T V W s1 = comment T V W s
                 /\ line_no T V W s1 = line_no T V W s /\ closed T V W s1 = closed T V W s
                 /\ world T V W s1 = match k with KPrint => emit (line_no T V W s) sh (world T V W s) | _ => world T V W s end)
      (fun e w => Err e w = raise_here T V W s).
Proof.
  intros k g sh s. unfold Lines.do_dir. destruct k.
  - repeat split.
  - destruct g as [|[|]| |]; repeat split.
  - destruct (c_mode T V (cur T V W s)); [|destruct g]; repeat split.
  - destruct (c_mode T V (cur T V W s)); [|destruct g]; repeat split.
  - destruct g; [destruct (_ || _)|..]; repeat split.
  - destruct g; [destruct (_ || _)|..]; repeat split.
  - repeat split.
Qed.

Lemma do_dir_frame : forall k g sh (s s1 : st), do_dir k g sh s = Ok s1 ->
  header T V W s1 = header T V W s /\ pending T V W s1 = pending T V W s /\ comment T V W s1 = comment T V W s
  /\ line_no T V W s1 = line_no T V W s /\ closed T V W s1 = closed T V W s.
Proof.
  intros k g sh s s1 E. pose proof (do_dir_sat k g sh s) as H. rewrite E in H.
  destruct H as (H1 & H2 & H3 & H4 & H5 & _). auto.
Qed.

Lemma act_body_sat : forall x (f : st), sat (act_body x f)
  (fun s1 => line_no T V W s1 = line_no T V W f
             /\ pending T V W s1 = match x with XAttr a cf => Some (a, cf, line_no T V W f) | _ => pending T V W f end
             /\ world T V W s1 = match x with XDir KPrint _ sh => emit (line_no T V W f) sh (world T V W f) | _ => world T V W f end)
  (fun e w => e = ELoc None (Some (line_no T V W f)) /\ w = world T V W f).
Proof.
  intros [a cf|k g sh|] f; cbn.
  - destruct (c_mode T V (cur T V W f)) as [[|z]|]; cbn; auto.
  - pose proof (do_dir_sat k g sh f) as H. destruct (do_dir k g sh f) as [s1|e w]; cbn in H |- *.
    + destruct H as (_ & P & _ & L & _ & H). repeat split; [exact L|exact P|]. destruct k; exact H.
    + injection H as -> ->. auto.
  - destruct (closed T V W f); cbn; auto.
Qed.

(* after its flush a handler either leaves the header flag down or (the marker) finds no queued attribute *)
Lemma act_body_good : forall x (f s1 : st), header T V W f = false -> pending T V W f = None -> act_body x f = Ok s1 -> good s1.
Proof.
  intros x f s1 Hf Pf. destruct x; cbn.
  - destruct (c_mode T V (cur T V W f)) as [[|e]|]; unfold raise_here, raise_at; intros E; inversion E;
      apply good_header_false; exact Hf.
  - intros E. apply do_dir_frame in E. apply good_header_false. destruct E as (H1 & _). congruence.
  - destruct (closed T V W f); unfold raise_here, raise_at; intros E; inversion E. intros _. exact Pf.
Qed.

Lemma do_act_good : forall x (s s1 : st), good s -> do_act x s = Ok s1 -> good s1.
Proof.
  intros x s s1 G E. rewrite do_act_body in E. apply bind_inv in E. destruct E as (f & Ef & E).
  exact (act_body_good _ _ _ (flush_good _ _ Ef) (flush_no_pending _ _ G Ef) E).
Qed.

Lemma add_comment_frame : forall l (s : st),
  line_no T V W (add_comment l s) = line_no T V W s /\ pending T V W (add_comment l s) = pending T V W s
  /\ header T V W (add_comment l s) = header T V W s /\ world T V W (add_comment l s) = world T V W s.
Proof. intros l s. unfold Lines.add_comment. destruct (l_comment T V D l); auto. Qed.

Lemma add_comment_good : forall l (s : st), good s -> good (add_comment l s).
Proof. intros l s G. unfold Lines.add_comment. destruct (l_comment T V D l); exact G. Qed.

Lemma step_line_good : forall l (s s1 : st), good s -> step_line l s = Ok s1 -> good s1.
Proof.
  intros l s s1 G. destruct (line_kind l) as [[x Hx]|[Hq|He]].
  - rewrite (step_line_stmt _ _ _ Hx). unfold Lines.do_stmt. intros E.
    apply bind_inv in E. destruct E as (s3 & E & E3). apply bind_inv in E. destruct E as (s2 & E2 & E).
    inversion E3. apply add_comment_good. eapply do_act_good; [eapply run_pre_good|]; eauto.
  - rewrite (step_line_quiet _ _ Hq). intros E. inversion E. apply add_comment_good. exact G.
  - rewrite (step_line_empty _ _ He). intros E. apply good_header_false. eapply flush_good; eauto.
Qed.

Lemma run_upto_good : forall ls (s s1 : st), good s -> run_upto ls s = Ok s1 -> good s1.
Proof.
  induction ls as [|l r IH]; intros s s1 G; cbn.
  - intros E. inversion E. subst. exact G.
  - destruct (step_line l s) as [s2|] eqn:E2; [|discriminate]. cbn. apply IH.
    exact (step_line_good _ _ _ G E2).
Qed.

Lemma finalize_set_line : forall n (s : st), finalize (set_line T V W n s) = finalize s.
Proof. intros n [c h p cl cu d ln w]. reflexivity. Qed.

Lemma finish_set_line : forall n (s : st), finish (set_line T V W n s) = finish s.
Proof.
  intros. unfold Lines.finish. rewrite flush_set_line. destruct (flush s); cbn; [apply finalize_set_line|reflexivity].
Qed.

Lemma flush_finish : forall s : st, good s -> bind (flush s) finish = finish s.
Proof.
  intros s G. unfold Lines.finish. destruct (flush s) as [s1|] eqn:E; cbn; [|reflexivity].
  rewrite (flush_idem _ _ G E). reflexivity.
Qed.

(* finish does not read the line counter, so a whole run is the run in front of an imaginary next line, finished *)
Lemma run_from_finish : forall ls s, bind (run_from ls s) finish = bind (run_upto ls s) finish.
Proof.
  induction ls as [|l r IH]; intros s; [reflexivity|].
  cbn [Lines.run_from run_upto]. rewrite !bind_assoc. apply bind_ext. intros s1.
  destruct r; [apply eq_sym, finish_set_line|apply IH].
Qed.

Lemma run_finish : forall ls w, run ls w = bind (run_upto ls (init T V W w)) finish.
Proof. intros. apply run_from_finish. Qed.

Lemma run_app : forall p r w,
  run (p ++ r) w = bind (run_upto p (init T V W w)) (fun s => bind (run_upto r s) finish).
Proof. intros. rewrite run_finish, run_upto_app. apply bind_assoc. Qed.

Lemma run_insert : forall p x r w,
  run (p ++ x :: r) w
  = bind (run_upto p (init T V W w)) (fun s => bind (step_line x s) (fun s1 => bind (run_upto r (next_line x s1)) finish)).
Proof. intros. rewrite run_app. apply bind_ext. intros s. apply bind_assoc. Qed.

(* every way the text can end: with or without a final line feed *)
Theorem final_newline : forall ls w, run (ls ++ [empty_line]) w = run ls w.
Proof.
  intros ls w. rewrite run_insert, run_finish.
  destruct (run_upto ls (init T V W w)) as [s|] eqn:E; [|reflexivity]. cbn [Lines.bind run_upto].
  rewrite (step_line_empty empty_line s eq_refl).
  rewrite <- (flush_finish s (run_upto_good _ _ _ (good_init w) E)).
  apply bind_ext. intros f. apply finish_set_line.
Qed.

End Basics.

Arguments sat {W A}.
Arguments sat_bind {W A B r f P P' Q}.
Arguments sat_mono {W A r P P' Q Q'}.
Arguments flushP {T V W}.
Arguments do_dir_sat {T V W}.
Arguments do_dir_guarded {T V W emit}.
Arguments act_body_sat {T V W}.
Arguments add_comment_frame {T V D W}.
Arguments res_rel {T V W}.
Arguments bind_res_rel {T V W}.
Arguments res_rel_impl {T V W}.
Arguments bind_inv {W A B}.
Arguments line_kind {T V D}.
Arguments step_line_stmt {T V D W read_dep emit}.
Arguments step_line_quiet {T V D W read_dep emit}.
Arguments step_line_empty {T V D W read_dep emit}.
Arguments do_act_body {T V W emit}.
Arguments flush_set_line {T V W}.
Arguments flush_set_world {T V W}.
Arguments flush_err_world {T V W}.
Arguments flush_frame {T V W}.
Arguments flush_no_pending {T V W}.
Arguments run_finish {T V D W read_dep emit}.
Arguments run_app {T V D W read_dep emit}.
Arguments run_insert {T V D W read_dep emit}.
