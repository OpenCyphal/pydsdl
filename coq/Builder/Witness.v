(* Builder/Witness.v - concrete namespaces: the open finding F3 (print path) as a refutation of the full print property,
   and the repaired findings F1, F2, F8, F12 as positive regression examples of the model. *)
From Coq Require Import ZArith List Bool.
From PV Require Import Builder.Lines Builder.Reader Builder.ReaderProofs.
Import ListNotations.
Open Scope Z_scope.

Definition uline := line unit unit Z.
Definition ufile := file unit unit.

Definition fld (n : text) (cf : bool) : stmt unit unit Z := Stmt [PIdent] (XAttr (AField tt n) cf).
Definition ref (d : Z) (n : text) : stmt unit unit Z := Stmt [PIdent; PRead d; PIdent] (XAttr (AField tt n) false).
Definition sealed : stmt unit unit Z := Stmt [PIdent] (XDir KSealed GNone []).
Definition print (sh : text) : stmt unit unit Z := Stmt [PIdent] (XDir KPrint GOther sh).
Definition L (x : stmt unit unit Z) : uline := Line (Some x) false None 0.
Definition Lc (c : text) : uline := Line None false (Some c) 0.

Definition pA : text := [110; 115; 47; 65; 46; 49; 46; 48].   (* "ns/A.1.0" *)
Definition pZ : text := [110; 115; 47; 90; 46; 49; 46; 48].   (* "ns/Z.1.0" *)
Definition t222 : text := [50; 50; 50].

(* ns/A.1.0 = "Z.1.0 z\n@sealed", ns/Z.1.0 = "uint8 a\n@sealed\n@print 222" (known_findings.json, F3) *)
Definition fA : ufile := File 1 pA None [L (ref 2 [122]); L sealed].
Definition fZ : ufile := File 2 pZ None [L (fld [97] false); L sealed; L (print t222)].

(* the full print property: every delivery names a directive of the file whose path it carries, and no directive is
   delivered twice *)
Definition delivery_ok (fs : list ufile) (d : delivery) : bool :=
  match d with (p, n, s) =>
    existsb (fun f => text_eqb (f_path _ _ f) p &&
                      existsb (fun ns => (fst ns =? n) && text_eqb (snd ns) s) (print_dirs unit unit 1 (f_lines _ _ f))) fs
  end.
Fixpoint count_text (s : text) (ps : list delivery) : nat :=
  match ps with [] => O | (_, _, t) :: r => (if text_eqb s t then 1 else 0) + count_text s r end.
Definition deliveries_ok (fs : list ufile) (ps : list delivery) : bool :=
  forallb (delivery_ok fs) ps && forallb (fun d => match d with (_, _, s) => Nat.eqb (count_text s ps) 1 end) ps.

(* A is read first, Z is parsed as its dependency under A's handler: (A's path, 3, "222") *)
Lemma f3_wrong_path : read_ns unit unit [fA; fZ] [1; 2] [1; 2] = ([(pA, 3, t222)], None).
Proof. vm_compute. reflexivity. Qed.

(* named so that the dependency sorts first: it is read as a target, and again through its lookup twin *)
Lemma f3_twice : read_ns unit unit [fA; fZ] [1; 2] [2; 1] = ([(pZ, 3, t222); (pA, 3, t222)], None).
Proof. vm_compute. reflexivity. Qed.

Lemma print_refuted : exists (fs : list ufile) lk ts ps, read_ns unit unit fs lk ts = (ps, None) /\ deliveries_ok fs ps = false.
Proof. exists [fA; fZ], [1; 2], [1; 2], [(pA, 3, t222)]. split; [exact f3_wrong_path|vm_compute; reflexivity]. Qed.

Lemma print_refuted_twice : exists (fs : list ufile) lk ts ps, read_ns unit unit fs lk ts = (ps, None)
  /\ forallb (fun d => match d with (_, _, s) => Nat.eqb (count_text s ps) 1 end) ps = false.
Proof. exists [fA; fZ], [1; 2], [2; 1], [(pZ, 3, t222); (pA, 3, t222)]. split; [exact f3_twice|vm_compute; reflexivity]. Qed.

(* F12 (repaired): Z lacks @sealed; the error raised by its finalize() keeps line None through the referrer A, whose
   referring statement stands on line 3 *)
Definition fA3 : ufile := File 1 pA None [empty_line; empty_line; L (ref 2 [122]); L sealed].
Definition fZbad : ufile := File 2 pZ None [L (fld [97] false); empty_line].
Lemma finalize_line_example : read_ns unit unit [fA3; fZbad] [1; 2] [1; 2] = ([], Some (ELoc (Some pZ) None)).
Proof. vm_compute. reflexivity. Qed.

(* F2 (repaired): "uint8 truncated\n# c\n# d\nuint8 b\n@sealed" is reported at line 1 *)
Lemma f2_example : read_ns unit unit [File 1 pA None [L (fld [116] true); Lc [32; 99]; Lc [32; 100]; L (fld [98] false); L sealed]] [1] [1]
  = ([], Some (ELoc (Some pA) (Some 1))).
Proof. vm_compute. reflexivity. Qed.

(* F1 (repaired): "@sealed\nuint8 X = 256" without final line feed is rejected, at line 2 *)
Lemma f1_example : read_ns unit unit [File 1 pA None [L sealed; L (Stmt [PIdent] (XAttr (AConst tt [88] tt) true))]] [1] [1]
  = ([], Some (ELoc (Some pA) (Some 2))).
Proof. vm_compute. reflexivity. Qed.

(* F8 (repaired): "@print 'a<LF>b'<LF>@assert false" fails at line 3 *)
Lemma f8_example : read_ns unit unit [File 1 pA None [Line (Some (print [97])) false None 1; L (Stmt [PIdent] (XDir KAssert (GBool false) []))]] [1] [1]
  = ([(pA, 1, [97])], Some (ELoc (Some pA) (Some 3))).
Proof. vm_compute. reflexivity. Qed.
