(* Builder/Extra.v - C03: extra comment lines and empty lines change docs only.  Consequence of the mirror theorem:
   everything but the docs is a function of the statements alone. *)
From Coq Require Import ZArith List.
From PV Require Import Builder.Lines Builder.Spec Builder.Mirror.
Import ListNotations.
Open Scope Z_scope.

Section Extra.
Variables T V D W : Type.
Variable read_dep : D -> W -> W * option eloc.
Variable emit : Z -> text -> W -> W.

Notation line := (line T V D).
Notation stmt := (stmt T V D).
Notation run := (Lines.run T V D W read_dep emit).

(* the statements of a text, in order *)
Fixpoint sk (ls : list line) : list stmt :=
  match ls with
  | [] => []
  | l :: r => match l_stmt T V D l with Some x => x :: sk r | None => sk r end
  end.

Lemma sk_app : forall a b, sk (a ++ b) = sk a ++ sk b.
Proof. induction a as [|l a IH]; intros b; cbn; [reflexivity|]. destruct (l_stmt T V D l); cbn; rewrite IH; reflexivity. Qed.

Definition stmt_line (x : stmt) : line := Line (Some x) false None 0.

(* the spec functions look at the statements only *)
Lemma stmt_attrs_sk : forall ls, stmt_attrs T V D ls = stmt_attrs T V D (map stmt_line (sk ls)).
Proof.
  induction ls as [|l r IH]; cbn; [reflexivity|]. unfold attr_of. destruct (l_stmt T V D l) as [x|] eqn:E; [|exact IH].
  cbn. destruct x as [pre [a cf|k g sh|]]; cbn; unfold attr_of in IH; congruence.
Qed.

Lemma has_dir_sk : forall k ls, has_dir T V D k ls = has_dir T V D k (map stmt_line (sk ls)).
Proof.
  intros k. induction ls as [|l r IH]; cbn; [reflexivity|]. unfold has_dir, dir_of in *. destruct (l_stmt T V D l) as [x|] eqn:E.
  - cbn. rewrite IH. reflexivity.
  - cbn. exact IH.
Qed.

Lemma mode_dirs_sk : forall ls, mode_dirs T V D ls = mode_dirs T V D (map stmt_line (sk ls)).
Proof.
  induction ls as [|l r IH]; cbn; [reflexivity|]. unfold dir_of in *. destruct (l_stmt T V D l) as [x|] eqn:E.
  - cbn. rewrite IH. reflexivity.
  - cbn. exact IH.
Qed.

Definition smarker (x : stmt) : bool := match s_act T V D x with XMarker => true | _ => false end.
Fixpoint ssplit (xs : list stmt) : list stmt * option (list stmt) :=
  match xs with
  | [] => ([], None)
  | x :: r => if smarker x then ([], Some r) else let (a, b) := ssplit r in (x :: a, b)
  end.

Lemma is_marker_smarker : forall l : line,
  is_marker T V D l = match l_stmt T V D l with Some x => smarker x | None => false end.
Proof. intros l. unfold is_marker, smarker. destruct (l_stmt T V D l) as [[pre []]|]; reflexivity. Qed.

Lemma split_marker_sk : forall ls rq rest, split_marker T V D ls = (rq, rest) ->
  ssplit (sk ls) = (sk rq, match rest with Some (_, rs) => Some (sk rs) | None => None end).
Proof.
  induction ls as [|l r IH]; intros rq rest; cbn [split_marker sk].
  - intros E; injection E as <- <-. reflexivity.
  - rewrite is_marker_smarker. destruct (split_marker T V D r) as [a b]. specialize (IH _ _ eq_refl).
    destruct (l_stmt T V D l) as [x|] eqn:Es.
    + cbn [ssplit]. destruct (smarker x); intros E; injection E as <- <-; cbn [sk]; rewrite ?Es, ?IH; reflexivity.
    + intros E; injection E as <- <-. cbn [sk]. rewrite Es. exact IH.
Qed.

(* a schema without its docs *)
Definition undoc_sect (k : sect T V) := (k_union T V k, k_extent T V k, map fst (k_fields T V k), map fst (k_consts T V k)).
Definition undoc (m : model T V) := (m_deprecated T V m, undoc_sect (m_req T V m), option_map undoc_sect (m_resp T V m)).

Lemma mirrors_undoc : forall h1 h2 ls1 ls2 k1 k2, mirrors T V D h1 ls1 k1 -> mirrors T V D h2 ls2 k2 -> sk ls1 = sk ls2 ->
  undoc_sect k1 = undoc_sect k2.
Proof.
  intros h1 h2 ls1 ls2 k1 k2 M1 M2 E.
  destruct (mirrors_once T V D _ _ _ M1) as [F1 C1]. destruct (mirrors_once T V D _ _ _ M2) as [F2 C2].
  destruct M1 as (_ & _ & _ & U1 & mo1 & Mo1 & X1). destruct M2 as (_ & _ & _ & U2 & mo2 & Mo2 & X2).
  unfold undoc_sect. rewrite F1, F2, C1, C2, U1, U2, X1, X2.
  rewrite (stmt_attrs_sk ls1), (stmt_attrs_sk ls2), (has_dir_sk _ ls1), (has_dir_sk _ ls2), E.
  rewrite (mode_dirs_sk ls1) in Mo1. rewrite (mode_dirs_sk ls2) in Mo2. rewrite E in Mo1. rewrite Mo1 in Mo2. inversion Mo2. reflexivity.
Qed.

(* whenever two texts with the same statements are both accepted, their models differ in docs only *)
Theorem same_statements : forall ls1 ls2 w1 w2 m1 m2 w1' w2', sk ls1 = sk ls2 ->
  run ls1 w1 = Ok (m1, w1') -> run ls2 w2 = Ok (m2, w2') -> undoc m1 = undoc m2.
Proof.
  intros ls1 ls2 w1 w2 m1 m2 w1' w2' E R1 R2.
  destruct (mirror T V D W read_dep emit _ _ _ _ R1) as [D1 S1]. destruct (mirror T V D W read_dep emit _ _ _ _ R2) as [D2 S2].
  destruct (split_marker T V D ls1) as [rq1 rest1] eqn:E1. destruct (split_marker T V D ls2) as [rq2 rest2] eqn:E2.
  pose proof (split_marker_sk _ _ _ E1) as K1. pose proof (split_marker_sk _ _ _ E2) as K2. rewrite E, K2 in K1.
  unfold undoc. rewrite D1, D2, (has_dir_sk _ ls1), (has_dir_sk _ ls2), E.
  destruct rest1 as [[ml1 rs1]|], rest2 as [[ml2 rs2]|]; try discriminate.
  - injection K1 as Kq Ks. destruct S1 as (Q1 & k1 & -> & Mk1 & _). destruct S2 as (Q2 & k2 & -> & Mk2 & _). cbn.
    rewrite (mirrors_undoc _ _ _ _ _ _ Q1 Q2 (eq_sym Kq)), (mirrors_undoc _ _ _ _ _ _ Mk1 Mk2 (eq_sym Ks)). reflexivity.
  - injection K1 as Kq. destruct S1 as (Q1 & ->). destruct S2 as (Q2 & ->). cbn. rewrite (mirrors_undoc _ _ _ _ _ _ Q1 Q2 (eq_sym Kq)). reflexivity.
Qed.

(* a comment line or an empty line inserted anywhere changes docs only, provided both texts are accepted.  That acceptance
   itself is unaffected is ExtraFull.quiet_lines and ExtraFull.empty_lines (the latter for statements in which every _offset_
   follows an identifier: for arbitrary event lists an earlier flush can change what add_field sees). *)
Theorem extra_lines : forall p x r w m1 m2 w1 w2, l_stmt T V D x = None ->
  run (p ++ x :: r) w = Ok (m1, w1) -> run (p ++ r) w = Ok (m2, w2) -> undoc m1 = undoc m2.
Proof.
  intros p x r w m1 m2 w1 w2 Hx R1 R2. eapply same_statements; [|exact R1|exact R2].
  rewrite !sk_app. cbn. rewrite Hx. reflexivity.
Qed.

End Extra.
