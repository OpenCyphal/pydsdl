(* Builder/LineProofs.v - where errors get their line.  The visit of one line is a sequence of steps (flush, the nodes of
   the statement, the handler, the comment), each of which leaves the counter alone and ends in a later state of the line
   or with an error of one of three kinds (cls); over a whole text the counter is the physical line, and the line
   remembered with a queued attribute is the line of its statement. *)
From Coq Require Import ZArith List.
From PV Require Import Builder.Lines Builder.Basics.
Import ListNotations.
Open Scope Z_scope.

Section LineProofs.
Variables T V D W : Type.
Variable read_dep : D -> W -> W * option eloc.
Variable emit : Z -> text -> W -> W.

Notation st := (st T V W).
Notation line := (line T V D).
Notation flush := (flush T V W).
Notation step_pre := (step_pre T V D W read_dep).
Notation run_pre := (run_pre T V D W read_dep).
Notation do_act := (do_act T V W emit).
Notation do_stmt := (do_stmt T V D W read_dep emit).
Notation step_line := (step_line T V D W read_dep emit).
Notation run_from := (run_from T V D W read_dep emit).
Notation run_upto := (run_upto T V D W read_dep emit).
Notation next_line := (next_line T V D W).
Notation line_no := (line_no T V W).
Notation pending := (pending T V W).
Notation world := (world T V W).
Notation header := (header T V W).
Notation add_comment := (add_comment T V D W).
Notation finish := (Lines.finish T V W).
Notation finalize := (Lines.finalize T V W).
Notation run := (Lines.run T V D W read_dep emit).
Notation good := (good T V W).
Notation bind := (Lines.bind W).
Notation res := (res W).
Notation act_body := (act_body T V W emit).

(* the physical line on which the line after ls starts when ls starts on line n: a statement with k raw line feeds inside
   string literals occupies k + 1 physical lines *)
Fixpoint phys_after (n : Z) (ls : list line) : Z :=
  match ls with
  | [] => n
  | l :: r => phys_after (n + 1 + l_extra T V D l) r
  end.

Lemma flush_line : forall s s1 : st, flush s = Ok s1 -> line_no s1 = line_no s.
Proof. intros s s1 E. apply (flush_frame _ _ E). Qed.

Lemma flush_world : forall s : st, sat (flush s) (fun s1 => world s1 = world s) (fun _ w => w = world s).
Proof. intros s. destruct (flushP s) as [f H|]; [apply H|reflexivity]. Qed.

Lemma do_act_later : forall x (s s1 : st), do_act x s = Ok s1 -> line_no s1 = line_no s.
Proof.
  intros x s s1 E. rewrite do_act_body in E. apply bind_inv in E. destruct E as (f & Ef & E).
  pose proof (act_body_sat emit x f) as H. rewrite E in H. rewrite <- (flush_line _ _ Ef). apply H.
Qed.

Inductive cls (s : st) (e : eloc) : Prop :=
| cls_here : e = ELoc None (Some (line_no s)) -> cls s e                                   (* raised by the visited statement *)
| cls_queued : forall a cf n, pending s = Some (a, cf, n) ->
               e = ELoc None (Some n) -> cls s e                                           (* raised by constructing the queued attribute *)
| cls_dep : forall d w0 w1 e0, read_dep d w0 = (w1, Some e0) -> e = inject_line e0 (line_no s) -> cls s e.  (* came out of a nested read *)

(* a later state of the same line: same counter; the queued attribute is gone, the same, or was queued by this line *)
Definition later (s s2 : st) : Prop :=
  line_no s2 = line_no s /\ (pending s2 = None \/ pending s2 = pending s \/ exists a cf, pending s2 = Some (a, cf, line_no s)).

Lemma later_refl : forall s, later s s.
Proof. intros s. split; auto. Qed.

Lemma later_trans : forall s s2 s3, later s s2 -> later s2 s3 -> later s s3.
Proof.
  intros s s2 s3 [L1 P1] [L2 P2]. split; [congruence|].
  destruct P2 as [P2|[P2|(a & cf & P2)]]; [auto| |rewrite L1 in P2; eauto].
  rewrite P2. exact P1.
Qed.

(* an attribute queued by this line that fails on this line is reported here: its remembered line is the counter *)
Lemma cls_later : forall s s2 e, later s s2 -> cls s2 e -> cls s e.
Proof.
  intros s s2 e [L P] C. destruct C as [H|a cf n H He|d w0 w1 e0 H He].
  - apply cls_here. congruence.
  - destruct P as [P|[P|(a' & cf' & P)]]; [congruence| |apply cls_here; congruence].
    apply (cls_queued s e a cf n); [congruence|exact He].
  - eapply cls_dep; eauto. congruence.
Qed.

(* a part of the visit of one line: it ends in a later state of the line or with a classified error *)
Definition steps (s : st) (r : res st) : Prop := sat r (later s) (fun e _ => cls s e).

Lemma steps_bind : forall (s : st) r f, steps s r -> (forall a, steps a (f a)) -> steps s (bind r f).
Proof.
  intros s r f H Hf. apply (sat_bind H). intros a _ L. specialize (Hf a).
  destruct (f a); [exact (later_trans _ _ _ L Hf)|exact (cls_later _ _ _ L Hf)].
Qed.

Lemma flush_steps : forall s : st, steps s (flush s).
Proof.
  intros s. destruct (flushP s) as [s1 (_ & _ & P & _ & _ & L & _)|a cf n _ P _].
  - split; [exact L|]. rewrite P. destruct (header s); auto.
  - eapply cls_queued; eauto.
Qed.

Lemma step_pre_steps : forall p (s : st), steps s (step_pre p s).
Proof.
  intros p s. destruct p; cbn.
  - apply flush_steps.
  - split; auto.
  - apply cls_here. reflexivity.
  - destruct (read_dep d (world s)) as [w1 [e0|]] eqn:R; [eapply cls_dep; eauto|split; auto].
Qed.

Lemma run_pre_steps : forall ps (s : st), steps s (run_pre ps s).
Proof.
  induction ps as [|p ps IH]; intros s; [apply later_refl|].
  apply steps_bind; [apply step_pre_steps|exact IH].
Qed.

Lemma act_body_steps : forall x (f : st), steps f (act_body x f).
Proof.
  intros x f. pose proof (act_body_sat emit x f) as H. destruct (act_body x f) as [s1|e w].
  - destruct H as (L & P & _). split; [exact L|]. destruct x; eauto.
  - apply cls_here, H.
Qed.

Lemma do_stmt_steps : forall x (s : st), steps s (do_stmt x s).
Proof.
  intros x s. apply steps_bind; [apply run_pre_steps|]. intros s2.
  rewrite do_act_body. apply steps_bind; [apply flush_steps|apply act_body_steps].
Qed.

(* C17, one line: the counter does not move, and an error that leaves step_line carries the line of this statement, or the
   line remembered with the queued attribute whose construction failed, or it came out of a nested read (then it already
   has the other file's path) *)
Theorem step_line_steps : forall l (s : st), steps s (step_line l s).
Proof.
  intros l s. apply steps_bind; [destruct (l_stmt T V D l); [apply do_stmt_steps|apply later_refl]|]. intros s1.
  assert (L : later s1 (add_comment l s1)) by (destruct (add_comment_frame l s1) as (L & P & _); split; auto).
  destruct (is_empty_text T V D l); [|exact L]. exact (steps_bind s1 (Ok (add_comment l s1)) flush L flush_steps).
Qed.

Lemma run_pre_line : forall ps (s s1 : st), run_pre ps s = Ok s1 -> line_no s1 = line_no s.
Proof. intros ps s s1 E. pose proof (run_pre_steps ps s) as H. rewrite E in H. apply H. Qed.

Lemma step_line_line : forall l (s s1 : st), step_line l s = Ok s1 -> line_no s1 = line_no s.
Proof. intros l s s1 E. pose proof (step_line_steps l s) as H. rewrite E in H. apply H. Qed.

Theorem step_line_cls : forall l (s : st) e w, step_line l s = Err e w -> cls s e.
Proof. intros l s e w E. pose proof (step_line_steps l s) as H. rewrite E in H. exact H. Qed.

Theorem line_counter : forall ls (s s1 : st), run_upto ls s = Ok s1 -> line_no s1 = phys_after (line_no s) ls.
Proof.
  induction ls as [|l r IH]; intros s s1; cbn.
  - intros [= <-]; reflexivity.
  - destruct (step_line l s) as [s2|] eqn:E2; [|discriminate]. cbn. intros E.
    rewrite (IH _ _ E). cbn. rewrite (step_line_line _ _ _ E2). reflexivity.
Qed.

Lemma run_from_ok : forall ls (s s' : st), ls <> [] -> run_from ls s = Ok s' ->
  exists p l s0, ls = p ++ [l] /\ run_upto p s = Ok s0 /\ step_line l s0 = Ok s'.
Proof.
  intros ls s s' NE E. destruct (exists_last NE) as (p & l & ->).
  rewrite (run_from_last T V D W read_dep emit) in E.
  destruct (run_upto p s) as [s0|] eqn:Ep; [|discriminate]. cbn in E.
  exists p, l, s0. auto.
Qed.

(* Spec.quietb l = true, as a proposition *)
Definition quiet (l : line) : Prop := l_stmt T V D l = None /\ is_empty_text T V D l = false.

(* q = (a, cf, n) was queued by a statement of ls (which starts on line n0) and nothing has flushed since *)
Definition queued_at (ls : list line) (n0 : Z) (q : attr T V * bool * Z) : Prop :=
  exists p1 l1 r1 pre, ls = p1 ++ l1 :: r1 /\ l_stmt T V D l1 = Some (Stmt pre (XAttr (fst (fst q)) (snd (fst q))))
    /\ snd q = phys_after n0 p1 /\ Forall quiet r1.

Lemma reach_good : forall p w (s : st), run_upto p (init T V W w) = Ok s -> good s.
Proof. intros p w s. apply (run_upto_good T V D W read_dep emit), good_init. Qed.

Lemma do_act_pending : forall x (s s1 : st), good s -> do_act x s = Ok s1 ->
  pending s1 = match x with XAttr a cf => Some (a, cf, line_no s) | _ => None end.
Proof.
  intros x s s1 G E. rewrite do_act_body in E. apply bind_inv in E. destruct E as (f & Ef & E).
  pose proof (act_body_sat emit x f) as H. rewrite E in H. destruct H as (_ & H & _).
  rewrite (flush_no_pending _ _ G Ef), (flush_line _ _ Ef) in H. exact H.
Qed.

Lemma step_line_pending : forall l (s s1 : st), good s -> step_line l s = Ok s1 ->
  pending s1 = match l_stmt T V D l with
               | Some x => match s_act T V D x with XAttr a cf => Some (a, cf, line_no s) | _ => None end
               | None => if is_empty_text T V D l then None else pending s
               end.
Proof.
  intros l s s1 G E. destruct (line_kind l) as [[x Hx]|[Hq|He]].
  - rewrite (step_line_stmt _ _ _ Hx) in E. rewrite Hx. apply bind_inv in E. destruct E as (s3 & E & [= <-]).
    apply bind_inv in E. destruct E as (s2 & E2 & E3).
    pose proof (do_act_pending _ _ _ (run_pre_good T V D W read_dep _ _ _ G E2) E3) as H.
    rewrite (run_pre_line _ _ _ E2) in H. destruct (add_comment_frame l s3) as (_ & -> & _). exact H.
  - rewrite (step_line_quiet _ _ Hq) in E. injection E as <-. unfold Spec.quietb in Hq.
    destruct (l_stmt T V D l); [discriminate|]. destruct (is_empty_text T V D l); [discriminate|]. apply add_comment_frame.
  - rewrite (step_line_empty _ _ He) in E. rewrite He. unfold Lines.is_empty_text in He.
    destruct (l_stmt T V D l); [discriminate|]. exact (flush_no_pending _ _ G E).
Qed.

(* C17_line_commit, part 1: in every reachable state the remembered line is the physical line of the attribute statement *)
Theorem pending_line : forall p w (s : st) q, run_upto p (init T V W w) = Ok s -> pending s = Some q -> queued_at p 1 q.
Proof.
  induction p as [|l p IH] using rev_ind; intros w s q E Q.
  - injection E as <-. discriminate.
  - rewrite (run_upto_app T V D W read_dep emit) in E. apply bind_inv in E. destruct E as (s0 & E0 & E).
    apply bind_inv in E. destruct E as (s1 & E1 & [= <-]).
    pose proof (step_line_pending _ _ _ (reach_good _ _ _ E0) E1) as P. change (pending s1 = Some q) in Q.
    rewrite Q, (line_counter _ _ _ E0) in P.
    destruct (l_stmt T V D l) as [[pre act]|] eqn:Es; cbn [s_act] in P.
    + destruct act; try discriminate. injection P as ->. exists p, l, [], pre. auto.
    + destruct (is_empty_text T V D l) eqn:Em; [discriminate|].
      destruct (IH _ _ _ E0 (eq_sym P)) as (p1 & l1 & r1 & pre & -> & H2 & H3 & H4).
      exists p1, l1, (r1 ++ [l]), pre. rewrite <- app_assoc. repeat split; [exact H2|exact H3|].
      apply Forall_app. split; [exact H4|]. exact (Forall_cons l (conj Es Em) (Forall_nil _)).
Qed.

Theorem error_location : forall p l w (s : st) e w', run_upto p (init T V W w) = Ok s -> step_line l s = Err e w' ->
  e = ELoc None (Some (phys_after 1 p))
  \/ (exists q, queued_at p 1 q /\ e = ELoc None (Some (snd q)))
  \/ (exists d w0 w1 e0, read_dep d w0 = (w1, Some e0) /\ e = inject_line e0 (phys_after 1 p)).
Proof.
  intros p l w s e w' E1 E2. pose proof (line_counter _ _ _ E1) as L. cbn in L.
  destruct (step_line_cls _ _ _ _ E2) as [H|a cf n H He|d w0 w1 e0 H He].
  - left. congruence.
  - right. left. exists (a, cf, n). split; [eapply pending_line; eauto|exact He].
  - right. right. exists d, w0, w1, e0. split; [exact H|congruence].
Qed.

Theorem error_location_here : forall p l w (s : st) e w', run_upto p (init T V W w) = Ok s ->
  pending s = None -> (forall d w0, snd (read_dep d w0) = None) -> step_line l s = Err e w' -> e = ELoc None (Some (phys_after 1 p)).
Proof.
  intros p l w s e w' E P R Es.
  destruct (step_line_cls _ _ _ _ Es) as [H|a cf n H He|d w0 w1 e0 H He].
  - rewrite H, (line_counter _ _ _ E). reflexivity.
  - congruence.
  - specialize (R d w0). rewrite H in R. discriminate.
Qed.

Lemma finalize_spec : forall s : st, sat (finalize s) (fun mw => snd mw = world s) (fun e w => e = no_loc /\ w = world s).
Proof.
  intros s. unfold Lines.finalize.
  destruct (closed T V W s) as [c|]; [destruct (close T V c)|]; destruct (close T V (cur T V W s)); cbn; auto.
Qed.

(* an error raised after the last line: parse()'s final flush or finalize() *)
Lemma finish_err : forall (s : st) e w, finish s = Err e w ->
  e = no_loc \/ exists a cf n, pending s = Some (a, cf, n) /\ e = ELoc None (Some n).
Proof.
  intros s e w. unfold Lines.finish. destruct (flushP s) as [f _|a cf n _ P _]; cbn.
  - intros E. pose proof (finalize_spec f) as H. rewrite E in H. left. apply H.
  - intros [= <- _]. right. eauto.
Qed.

Theorem finish_location : forall ls w (s : st) e w', run_upto ls (init T V W w) = Ok s ->
  finish s = Err e w' ->
  e = no_loc \/ (exists q, queued_at ls 1 q /\ e = ELoc None (Some (snd q))).
Proof.
  intros ls w s e w' E1 E. destruct (finish_err _ _ _ E) as [H|(a & cf & n & P & He)]; [left; exact H|right].
  exists (a, cf, n). split; [eapply pending_line; eauto|exact He].
Qed.

(* the queued attribute will raise when constructed, and it was queued on line n *)
Definition doomed (n : Z) (s : st) : Prop :=
  header s = false /\ exists a, pending s = Some (a, true, n).

Lemma doomed_flush : forall n (s : st), doomed n s -> flush s = Err (ELoc None (Some n)) (world s).
Proof.
  intros n [c h p cl cu d ln w] (H & a & P). cbn in H, P. subst. reflexivity.
Qed.

(* the statement visits an identifier (or nothing) first: its first effect is a flush.  In pydsdl's grammar a statement
   begins with a type, with '@' and a directive name, or is the service marker; composite type names and directive names
   are identifier nodes (visit_identifier flushes), so this fails only where a primitive or void type whose width or
   capacity is faulty raises before any identifier.  It implies ExtraFull.gl_pre (s_pre x), the side condition of C03's
   comment theorems, by definition. *)
Definition flush_first (x : stmt T V D) : Prop :=
  match s_pre T V D x with [] => True | PIdent :: _ => True | _ => False end.

Lemma run_pre_doomed : forall n ps (s s2 : st), doomed n s -> run_pre ps s = Ok s2 -> doomed n s2.
Proof.
  induction ps as [|p ps IH]; intros s s2 Dm; cbn.
  - intros [= <-]. exact Dm.
  - destruct p; cbn.
    + rewrite (doomed_flush _ _ Dm). discriminate.
    + apply IH. exact Dm.
    + discriminate.
    + destruct (read_dep d (world s)) as [w1 [e1|]]; [discriminate|]. apply IH. exact Dm.
Qed.

(* no statement gets past a doomed queue: the visitor's flush raises at the latest, the first identifier at the earliest *)
Lemma doomed_stmt : forall n x (s : st), doomed n s ->
  sat (do_stmt x s) (fun _ => False) (fun e _ => flush_first x -> e = ELoc None (Some n)).
Proof.
  intros n [ps act] s Dm. unfold Lines.do_stmt, flush_first. cbn [s_pre s_act].
  destruct (run_pre ps s) as [s2|e w] eqn:E2; cbn.
  - rewrite do_act_body, (doomed_flush _ _ (run_pre_doomed _ _ _ _ Dm E2)). intros _. reflexivity.
  - destruct ps as [|[| | |d] ps]; try contradiction; cbn in E2; [discriminate|].
    rewrite (doomed_flush _ _ Dm) in E2. injection E2 as <- _. reflexivity.
Qed.

Definition flushes_first (l : line) : Prop := forall x, l_stmt T V D l = Some x -> flush_first x.

Lemma doomed_step : forall n l (s : st), doomed n s ->
  sat (step_line l s) (doomed n) (fun e _ => flushes_first l -> e = ELoc None (Some n)).
Proof.
  intros n l s Dm. destruct (line_kind l) as [[x Hx]|[Hq|He]].
  - rewrite (step_line_stmt _ _ _ Hx). pose proof (doomed_stmt n x s Dm) as H.
    destruct (do_stmt x s); [contradiction|]. intros F. exact (H (F x Hx)).
  - rewrite (step_line_quiet _ _ Hq). destruct (add_comment_frame l s) as (_ & P & H & _). unfold doomed. cbn [sat].
    rewrite P, H. exact Dm.
  - rewrite (step_line_empty _ _ He), (doomed_flush _ _ Dm). intros _. reflexivity.
Qed.

Lemma doomed_upto : forall n r (s : st), doomed n s ->
  sat (run_upto r s) (doomed n) (fun e _ => Forall flushes_first r -> e = ELoc None (Some n)).
Proof.
  induction r as [|l r IH]; intros s Dm; [exact Dm|].
  pose proof (doomed_step n l s Dm) as H. cbn [Basics.run_upto]. destruct (step_line l s) as [s1|e w]; cbn [Lines.bind].
  - specialize (IH (next_line l s1) H). destruct (run_upto r (next_line l s1)); [exact IH|].
    intros F. exact (IH (Forall_inv_tail F)).
  - intros F. exact (H (Forall_inv F)).
Qed.

(* once line l has left the queue doomed, the run fails: at the latest in parse()'s final flush *)
Lemma doomed_rest : forall n p l r w (s0 s1 : st), run_upto p (init T V W w) = Ok s0 -> step_line l s0 = Ok s1 -> doomed n s1 ->
  sat (run (p ++ l :: r) w) (fun _ => False) (fun e _ => Forall flushes_first r -> e = ELoc None (Some n)).
Proof.
  intros n p l r w s0 s1 E0 E1 Dm. rewrite run_finish, (run_upto_app T V D W read_dep emit), E0.
  cbn [Lines.bind Basics.run_upto]. rewrite E1.
  apply (sat_bind (doomed_upto n r (next_line l s1) Dm)). intros s2 _ D2.
  unfold Lines.finish. rewrite (doomed_flush _ _ D2). intros _. reflexivity.
Qed.

Lemma queue_doomed : forall l pre a (s0 s1 : st), good s0 ->
  l_stmt T V D l = Some (Stmt pre (XAttr a true)) -> step_line l s0 = Ok s1 -> doomed (line_no s0) s1.
Proof.
  intros l pre a s0 s1 G Hs E1.
  assert (P : pending s1 = Some (a, true, line_no s0)) by (rewrite (step_line_pending _ _ _ G E1), Hs; reflexivity).
  split; [|eauto]. pose proof (step_line_good T V D W read_dep emit _ _ _ G E1) as G1.
  destruct (header s1) eqn:H; [|reflexivity]. rewrite (G1 H) in P. discriminate.
Qed.

(* C17_line_commit: an attribute statement on the line after p whose construction will raise (cfault) - if it is queued
   at all, the run ends with an error at exactly that physical line, whatever follows (comments, blank lines, the end of
   the text with or without line feed), provided the following statements flush first (see flush_first) *)
Theorem commit_line : forall p l r pre a w (s0 s1 : st),
  run_upto p (init T V W w) = Ok s0 -> l_stmt T V D l = Some (Stmt pre (XAttr a true)) -> step_line l s0 = Ok s1 ->
  Forall flushes_first r ->
  exists w', run (p ++ l :: r) w = Err (ELoc None (Some (phys_after 1 p))) w'.
Proof.
  intros p l r pre a w s0 s1 E0 Hs E1 F.
  pose proof (queue_doomed _ _ _ _ _ (reach_good _ _ _ E0) Hs E1) as Dm.
  rewrite (line_counter _ _ _ E0) in Dm. pose proof (doomed_rest _ _ _ r _ _ _ E0 E1 Dm) as H.
  destruct (run (p ++ l :: r) w) as [|e w']; [contradiction|]. rewrite (H F). eauto.
Qed.

(* without any condition on what follows: the run never succeeds *)
Theorem commit_not_lost : forall p l r pre a w, l_stmt T V D l = Some (Stmt pre (XAttr a true)) ->
  forall m w', run (p ++ l :: r) w <> Ok (m, w').
Proof.
  intros p l r pre a w Hs m w' E.
  destruct (run_upto p (init T V W w)) as [s0|e0 w0] eqn:E0; [destruct (step_line l s0) as [s1|e1 w1] eqn:E1|].
  - pose proof (doomed_rest _ _ _ r _ _ _ E0 E1 (queue_doomed _ _ _ _ _ (reach_good _ _ _ E0) Hs E1)) as H.
    rewrite E in H. exact H.
  - rewrite run_finish, (run_upto_app T V D W read_dep emit), E0 in E. cbn in E. rewrite E1 in E. discriminate.
  - rewrite run_finish, (run_upto_app T V D W read_dep emit), E0 in E. discriminate.
Qed.

End LineProofs.
