(* Builder/Lines.v - the statement stream machine of pydsdl: _parser._ParseTreeProcessor (visitor order, comment buffer,
   header flag, line counter) + _data_type_builder.DataTypeBuilder (queued attribute, schema builders, directives,
   finalize).  DEFINITIONS ONLY (no proofs).  Shared by C03, C17 (and reusable by C05/C08).

   Derived from traces of the real parser with a logging StatementStreamProcessor (see harness/props/c03.py, TRACE):
     a definition is   line (end_of_line line)*        - a text with k line feeds has k+1 lines, the last may be empty
     a line is         statement? blanks? comment?     - no blanks BEFORE a statement (syntax error)
   Visiting order of one line (post-order walk of the parse tree):
     1. the sub-tree of the statement, left to right: every identifier node calls _flush_comment() *before* it is resolved;
        type constructors / operators / resolve_* may raise; a versioned type reference reads the dependency;
     2. the statement visitor: _flush_comment(), then the on_* handler of the builder (queue / directive / marker);
     3. the comment node: appended to the comment buffer;
     4. visit_line: when the text of the line is the empty string: _flush_comment();
     5. visit_end_of_line (only between lines): current line += 1 + line feeds inside string literals of the line.
   At the end of the text parse() calls flush() once more (fix 754220d) and read() calls finalize().
   Errors: a raise while a statement is visited gets the current line; a raise while the queued attribute is constructed
   gets the line remembered with it (fix beef4c7); an error that comes out of a nested read() already has a path and keeps
   its line or absence of line (fix e846190); finalize() errors have no line.
   Proofs about this machine: Basics.v, LineProofs.v, Mirror.v, Blank.v, Extra.v, ExtraFull.v, RenderProofs.v, ReaderProofs.v,
   PrintProofs.v; declarative spec: Spec.v; canonical text: Render.v; namespace reader: Reader.v.

   Payloads are abstract:  T - a type as written (already resolved), V - an evaluated constant value,
   D - a reference to a dependency, W - the world threaded through dependency reads and @print deliveries. *)
From Coq Require Import ZArith List Bool.
Import ListNotations.
Open Scope Z_scope.

Definition text := list Z.            (* strings are lists of Unicode code points *)

Fixpoint text_eqb (a b : text) : bool :=
  match a, b with
  | [], [] => true
  | x :: a', y :: b' => (x =? y) && text_eqb a' b'
  | _, _ => false
  end.

Definition is_nil {A : Type} (l : list A) : bool := match l with [] => true | _ => false end.

(* Error location as carried by pydsdl.Error: both parts optional, filled in innermost first
   (Error.set_error_location_if_unknown). *)
Record eloc := ELoc { e_path : option text; e_line : option Z }.

Definition fill_line (e : eloc) (n : Z) : eloc :=
  match e_line e with Some _ => e | None => ELoc (e_path e) (Some n) end.
Definition fill_path (e : eloc) (p : text) : eloc :=
  match e_path e with Some _ => e | None => ELoc (Some p) (e_line e) end.
(* _parser.parse(), except clause (fix e846190): the local line is injected only when the error has no path yet; an error
   that comes out of a nested read() already carries the other file's path, its line (possibly None) refers to that file *)
Definition inject_line (e : eloc) (n : Z) : eloc :=
  match e_path e with Some _ => e | None => fill_line e n end.

(* visit_comment: the text after '#', one leading blank removed, joined with a line feed unless the buffer is "" *)
Definition strip_comment (c : text) : text := match c with 32 :: r => r | _ => c end.
Definition cappend (buf c : text) : text :=
  if is_nil buf then strip_comment c else buf ++ 10 :: strip_comment c.

Inductive dkind := KPrint | KAssert | KExtent | KSealed | KUnion | KDeprecated | KUnknown.
(* value of the directive's expression as far as the handlers look at it *)
Inductive darg := GNone | GBool (b : bool) | GInt (z : Z) | GOther.
Inductive mode := MSealed | MDelimited (extent : Z).

Section Machine.
Variables T V D W : Type.

(* result of a run: the world is returned in both cases (prints delivered before an error stay delivered) *)
Inductive res (A : Type) := Ok (a : A) | Err (e : eloc) (w : W).
Arguments Ok {A}. Arguments Err {A}.
Definition bind {A B : Type} (r : res A) (f : A -> res B) : res B :=
  match r with Ok a => f a | Err e w => Err e w end.

(* reading a dependency: new world, and the error of the inner read() if it raised *)
Variable read_dep : D -> W -> W * option eloc.
(* the print handler: line number, str(value) *)
Variable emit : Z -> text -> W -> W.

(* what happens while the sub-tree of a statement is visited, before the statement visitor itself *)
Inductive pre :=
| PIdent               (* an identifier node: _flush_comment() *)
| POffset              (* the identifier just visited resolves to _offset_: DataSchemaBuilder.offset marks "computed" *)
| PRaise               (* an InvalidDefinitionError is raised here (type constructor, operator, undefined identifier/type, literal) *)
| PRead (d : D).       (* resolve_versioned_data_type found the definition and reads it *)

Inductive attr :=
| AField (t : T) (n : text)
| APad (t : T)
| AConst (t : T) (n : text) (v : V).
Definition fieldlike (a : attr) : bool := match a with AConst _ _ _ => false | _ => true end.

Inductive action :=
| XAttr (a : attr) (cfault : bool)      (* cfault: constructing Field/PaddingField/Constant raises (name, value) *)
| XDir (k : dkind) (g : darg) (shown : text)   (* shown = str(value) or "" *)
| XMarker.

Record stmt := Stmt { s_pre : list pre; s_act : action }.

Record line := Line {
  l_stmt : option stmt;
  l_blanks : bool;            (* the line contains blanks (only relevant when there is neither statement nor comment) *)
  l_comment : option text;    (* text after '#' *)
  l_extra : Z                 (* raw line feeds inside string literals of the statement: physical lines - 1 *)
}.
Definition empty_line : line := Line None false None 0.
Definition is_empty_text (l : line) : bool :=
  match l_stmt l, l_comment l with None, None => negb (l_blanks l) | _, _ => false end.

(* DataSchemaBuilder *)
Record schema := Schema {
  c_fields : list (attr * text);   (* committed, in order, with their docs *)
  c_consts : list (attr * text);
  c_doc : text;
  c_mode : option mode;
  c_union : bool;
  c_offset : bool                  (* _bit_length_computed_at_least_once *)
}.
Definition schema0 : schema := Schema [] [] [] None false false.
Definition has_attrs (c : schema) : bool := negb (is_nil (c_fields c) && is_nil (c_consts c)).
Definition set_doc (d : text) (c : schema) := Schema (c_fields c) (c_consts c) d (c_mode c) (c_union c) (c_offset c).
Definition set_mode (m : mode) (c : schema) := Schema (c_fields c) (c_consts c) (c_doc c) (Some m) (c_union c) (c_offset c).
Definition set_union (c : schema) := Schema (c_fields c) (c_consts c) (c_doc c) (c_mode c) true (c_offset c).
Definition set_offset (c : schema) := Schema (c_fields c) (c_consts c) (c_doc c) (c_mode c) (c_union c) true.
Definition add_attr (a : attr) (doc : text) (c : schema) :=
  if fieldlike a then Schema (c_fields c ++ [(a, doc)]) (c_consts c) (c_doc c) (c_mode c) (c_union c) (c_offset c)
  else Schema (c_fields c) (c_consts c ++ [(a, doc)]) (c_doc c) (c_mode c) (c_union c) (c_offset c).

(* the mutable state of _ParseTreeProcessor + DataTypeBuilder; _structs = closed ++ [cur] *)
Record st := St {
  comment : text;                          (* _comment *)
  header : bool;                           (* _comment_is_header *)
  pending : option (attr * bool * Z);      (* _element_callback (+ whether it will raise) and _pending_attribute_line_number *)
  closed : option schema;                  (* the request schema once the service marker has been seen *)
  cur : schema;                            (* _structs[-1] *)
  deprecated : bool;                       (* _is_deprecated *)
  line_no : Z;                             (* _current_line_number *)
  world : W
}.
Definition init (w : W) : st := St [] true None None schema0 false 1 w.
Definition with_cur (f : schema -> schema) (s : st) : st :=
  St (comment s) (header s) (pending s) (closed s) (f (cur s)) (deprecated s) (line_no s) (world s).
Definition set_buf (b : text) (s : st) := St b (header s) (pending s) (closed s) (cur s) (deprecated s) (line_no s) (world s).
Definition set_header (h : bool) (s : st) := St (comment s) h (pending s) (closed s) (cur s) (deprecated s) (line_no s) (world s).
Definition set_pending (p : option (attr * bool * Z)) (s : st) := St (comment s) (header s) p (closed s) (cur s) (deprecated s) (line_no s) (world s).
Definition open_response (s : st) := St (comment s) (header s) (pending s) (Some (cur s)) schema0 (deprecated s) (line_no s) (world s).
Definition set_deprecated (s : st) := St (comment s) (header s) (pending s) (closed s) (cur s) true (line_no s) (world s).
Definition set_line (n : Z) (s : st) := St (comment s) (header s) (pending s) (closed s) (cur s) (deprecated s) n (world s).
Definition set_world (w : W) (s : st) := St (comment s) (header s) (pending s) (closed s) (cur s) (deprecated s) (line_no s) w.

Definition raise_at (n : Z) (s : st) : res st := Err (ELoc None (Some n)) (world s).
Definition raise_here (s : st) : res st := raise_at (line_no s) s.

(* constructing the queued attribute and adding it to the schema raises when the constructor does, or when a field is
   added to a union whose offset has been computed (DataSchemaBuilder.add_field) *)
Definition commit_fails (a : attr) (cfault : bool) (c : schema) : bool :=
  cfault || (fieldlike a && c_union c && c_offset c).

(* _ParseTreeProcessor._flush_comment *)
Definition flush (s : st) : res st :=
  if header s then Ok (set_buf [] (set_header false (with_cur (set_doc (comment s)) s)))
  else match pending s with
       | None => Ok (set_buf [] s)
       | Some (a, cf, n) =>
           if commit_fails a cf (cur s) then raise_at n s     (* line of the attribute statement (fix beef4c7) *)
           else Ok (set_buf [] (set_pending None (with_cur (add_attr a (comment s)) s)))
       end.

Definition step_pre (p : pre) (s : st) : res st :=
  match p with
  | PIdent => flush s
  | POffset => Ok (with_cur set_offset s)
  | PRaise => raise_here s
  | PRead d =>
      let (w, r) := read_dep d (world s) in
      match r with
      | None => Ok (set_world w s)
      | Some e => Err (inject_line e (line_no s)) w    (* parse(): line=current only if the error has no path *)
      end
  end.

Fixpoint run_pre (ps : list pre) (s : st) : res st :=
  match ps with
  | [] => Ok s
  | p :: r => bind (step_pre p s) (run_pre r)
  end.

(* DataTypeBuilder.on_directive and its handlers *)
Definition do_dir (k : dkind) (g : darg) (shown : text) (s : st) : res st :=
  match k with
  | KPrint => Ok (set_world (emit (line_no s) shown (world s)) s)
  | KAssert => match g with GBool true => Ok s | _ => raise_here s end
  | KExtent =>
      match c_mode (cur s), g with
      | None, GInt z => Ok (with_cur (set_mode (MDelimited z)) s)
      | _, _ => raise_here s
      end
  | KSealed =>
      match c_mode (cur s), g with
      | None, GNone => Ok (with_cur (set_mode MSealed) s)
      | _, _ => raise_here s
      end
  | KUnion =>
      match g with
      | GNone => if c_union (cur s) || has_attrs (cur s) then raise_here s else Ok (with_cur set_union s)
      | _ => raise_here s
      end
  | KDeprecated =>
      match g with
      | GNone => if deprecated s || (match closed s with Some _ => true | None => false end) || has_attrs (cur s)
                 then raise_here s else Ok (set_deprecated s)
      | _ => raise_here s
      end
  | KUnknown => raise_here s
  end.

(* the statement visitor: _flush_comment(), then the handler *)
Definition do_act (x : action) (s : st) : res st :=
  bind (flush s) (fun s1 =>
    match x with
    | XAttr a cf =>
        match c_mode (cur s1) with
        | Some (MDelimited _) => raise_here s1          (* _on_attribute: nothing may follow @extent *)
        | _ => Ok (set_pending (Some (a, cf, line_no s1)) s1)
        end
    | XDir k g shown => do_dir k g shown s1
    | XMarker =>
        let s2 := set_header true s1 in
        match closed s2 with
        | Some _ => raise_here s2
        | None => Ok (open_response s2)
        end
    end).

Definition do_stmt (x : stmt) (s : st) : res st := bind (run_pre (s_pre x) s) (do_act (s_act x)).

Definition add_comment (l : line) (s : st) : st :=
  match l_comment l with None => s | Some c => set_buf (cappend (comment s) c) s end.

Definition step_line (l : line) (s : st) : res st :=
  bind (match l_stmt l with None => Ok s | Some x => do_stmt x s end) (fun s1 =>
    let s2 := add_comment l s1 in
    if is_empty_text l then flush s2 else Ok s2).

(* visit_end_of_line *)
Definition next_line (l : line) (s : st) : st := set_line (line_no s + 1 + l_extra l) s.

Fixpoint run_from (ls : list line) (s : st) : res st :=
  match ls with
  | [] => Ok s
  | l :: r => bind (step_line l s) (fun s1 => match r with [] => Ok s1 | _ :: _ => run_from r (next_line l s1) end)
  end.

(* the composite returned by finalize() as far as C03 observes it *)
Record sect := Sect {
  k_union : bool;
  k_extent : option Z;                 (* Some e: DelimitedType with the declared extent; None: sealed *)
  k_doc : text;
  k_fields : list (attr * text);       (* fields and paddings in order, with docs *)
  k_consts : list (attr * text)
}.
Record model := Model { m_deprecated : bool; m_req : sect; m_resp : option sect }.

(* _make_composite: MissingSerializationModeError, MalformedUnionError (< 2 variants); the other checks of the
   composite constructors (name collisions, aggregation, extent size, port-ID) belong to C05 and are not modelled *)
Definition close (c : schema) : option sect :=
  match c_mode c with
  | None => None
  | Some m =>
      if c_union c && (Nat.ltb (length (c_fields c)) 2) then None
      else Some (Sect (c_union c) (match m with MSealed => None | MDelimited e => Some e end) (c_doc c) (c_fields c) (c_consts c))
  end.

Definition no_loc : eloc := ELoc None None.

Definition finalize (s : st) : res (model * W) :=
  match closed s with
  | None =>
      match close (cur s) with
      | None => Err no_loc (world s)
      | Some rq => Ok (Model (deprecated s) rq None, world s)
      end
  | Some c =>
      match close c, close (cur s) with
      | Some rq, Some rs => Ok (Model (deprecated s) rq (Some rs), world s)
      | _, _ => Err no_loc (world s)
      end
  end.

(* parse(): visit everything, flush(); then read(): finalize().  Errors leave without a path: read() adds it. *)
Definition finish (s : st) : res (model * W) := bind (flush s) finalize.
Definition run (ls : list line) (w : W) : res (model * W) := bind (run_from ls (init w)) finish.

(* DSDLDefinition.read: set_error_location_if_unknown(path=self.file_path) *)
Definition with_path {A : Type} (p : text) (r : res A) : res A :=
  match r with Ok a => Ok a | Err e w => Err (fill_path e p) w end.

End Machine.

Arguments Ok {W A}. Arguments Err {W A}.
Arguments PIdent {D}. Arguments POffset {D}. Arguments PRaise {D}. Arguments PRead {D}.
Arguments AField {T V}. Arguments APad {T V}. Arguments AConst {T V}.
Arguments XAttr {T V}. Arguments XDir {T V}. Arguments XMarker {T V}.
Arguments Stmt {T V D}. Arguments Line {T V D}. Arguments empty_line {T V D}.
