(* Builder/Blank.v - C03_blank_lines: a blanks-only line inserted anywhere changes nothing but line numbers.
   The two runs are related by a simulation that ignores the line counter and the line remembered with the queued
   attribute.  Hypothesis: the world does not depend on the line numbers given to the print handler. *)
From Coq Require Import ZArith List Bool.
From PV Require Import Builder.Lines Builder.Basics.
Import ListNotations.
Open Scope Z_scope.

Section Blank.
Variables T V D W : Type.
Variable read_dep : D -> W -> W * option eloc.
Variable emit : Z -> text -> W -> W.
Hypothesis emit_blind : forall n n' t w, emit n t w = emit n' t w.

Notation st := (st T V W).
Notation line := (line T V D).
Notation flush := (flush T V W).
Notation step_pre := (step_pre T V D W read_dep).
Notation run_pre := (run_pre T V D W read_dep).
Notation do_dir := (do_dir T V W emit).
Notation do_act := (do_act T V W emit).
Notation step_line := (step_line T V D W read_dep emit).
Notation run_upto := (run_upto T V D W read_dep emit).
Notation next_line := (next_line T V D W).
Notation run := (Lines.run T V D W read_dep emit).
Notation finish := (Lines.finish T V W).
Notation act_body := (act_body T V W emit).

Definition psim (p1 p2 : option (attr T V * bool * Z)) : Prop :=
  match p1, p2 with
  | None, None => True
  | Some (a, cf, _), Some (a', cf', _) => a = a' /\ cf = cf'
  | _, _ => False
  end.

Inductive sim : st -> st -> Prop :=
| sim_intro : forall c h p1 p2 cl cu d ln1 ln2 w, psim p1 p2 ->
    sim (St T V W c h p1 cl cu d ln1 w) (St T V W c h p2 cl cu d ln2 w).

(* res_rel sim, spelled out *)
Definition rsim (r1 r2 : res W st) : Prop :=
  match r1, r2 with
  | Ok s1, Ok s2 => sim s1 s2
  | Err _ w1, Err _ w2 => w1 = w2
  | _, _ => False
  end.

Lemma psim_refl : forall p, psim p p.
Proof. intros [[[a cf] n]|]; cbn; auto. Qed.
Lemma sim_refl : forall s, sim s s.
Proof. intros [c h p cl cu d ln w]. constructor. apply psim_refl. Qed.

Lemma flush_sim : forall s t, sim s t -> rsim (flush s) (flush t).
Proof.
  intros s t H. destruct H as [c h p1 p2 cl cu d ln1 ln2 w P]. unfold Lines.flush. cbn.
  destruct h.
  - cbn. constructor. exact P.
  - destruct p1 as [[[a cf] n]|], p2 as [[[a' cf'] n']|]; cbn in P; try contradiction.
    + destruct P as [-> ->]. destruct (commit_fails T V a' cf' cu); cbn; [reflexivity|]. constructor. exact I.
    + cbn. constructor. exact I.
Qed.

Lemma step_pre_sim : forall p s t, sim s t -> rsim (step_pre p s) (step_pre p t).
Proof.
  intros p s t H. destruct p; cbn.
  - apply flush_sim; exact H.
  - destruct H. cbn. constructor. assumption.
  - destruct H. cbn. reflexivity.
  - destruct H as [c h p1 p2 cl cu dd ln1 ln2 w P]. cbn. destruct (read_dep d w) as [w1 [e|]]; cbn; [reflexivity|].
    constructor. exact P.
Qed.

Lemma run_pre_sim : forall ps s t, sim s t -> rsim (run_pre ps s) (run_pre ps t).
Proof.
  induction ps as [|p ps IH]; intros s t H; cbn.
  - exact H.
  - apply (bind_res_rel sim sim); [apply step_pre_sim; exact H|exact IH].
Qed.

Lemma do_dir_sim : forall k g sh s t, sim s t -> rsim (do_dir k g sh s) (do_dir k g sh t).
Proof.
  intros k g sh s t H. rewrite !do_dir_guarded. destruct H as [c h p1 p2 cl cu d ln1 ln2 w P]. cbn.
  destruct (dir_ok k g _ _ _ _ _); [|reflexivity]. unfold dir_upd.
  destruct k; [| |destruct g| | | |]; cbn; rewrite ?(emit_blind ln1 ln2); constructor; exact P.
Qed.

Lemma act_body_sim : forall x s t, sim s t -> rsim (act_body x s) (act_body x t).
Proof.
  intros x s t H. destruct x.
  - destruct H as [c h p1 p2 cl cu d ln1 ln2 w P]. cbn. destruct (c_mode T V cu) as [[|z]|]; cbn; try reflexivity;
      constructor; cbn; auto.
  - apply do_dir_sim. exact H.
  - destruct H as [c h p1 p2 cl cu d ln1 ln2 w P]. cbn. destruct cl; cbn; [reflexivity|]. constructor. exact P.
Qed.

Lemma do_act_sim : forall x s t, sim s t -> rsim (do_act x s) (do_act x t).
Proof. intros x s t H. apply (bind_res_rel sim sim); [apply flush_sim; exact H|apply act_body_sim]. Qed.

Lemma step_line_sim : forall l s t, sim s t -> rsim (step_line l s) (step_line l t).
Proof.
  intros l s t H. unfold Lines.step_line. apply (bind_res_rel sim sim).
  - destruct (l_stmt T V D l) as [x|]; [|exact H]. unfold Lines.do_stmt.
    apply (bind_res_rel sim sim); [apply run_pre_sim; exact H|]. intros; apply do_act_sim; assumption.
  - intros s1 t1 H1.
    assert (A : sim (add_comment T V D W l s1) (add_comment T V D W l t1)).
    { unfold add_comment. destruct (l_comment T V D l); [|exact H1]. destruct H1. constructor. assumption. }
    destruct (is_empty_text T V D l); [apply flush_sim; exact A|exact A].
Qed.

Lemma next_line_sim : forall l l' s t, sim s t -> sim (next_line l s) (next_line l' t).
Proof. intros l l' s t H. destruct H. constructor. assumption. Qed.

Lemma run_upto_sim : forall ls s t, sim s t -> rsim (run_upto ls s) (run_upto ls t).
Proof.
  induction ls as [|l r IH]; intros s t H; cbn [Basics.run_upto].
  - exact H.
  - apply (bind_res_rel sim sim); [apply step_line_sim; exact H|]. intros s1 t1 H1. apply IH. apply next_line_sim. exact H1.
Qed.

(* what C03 observes of a run: the model, or the fact that it was rejected *)
Definition outcome (r : res W (model T V * W)) : option (model T V * W) :=
  match r with Ok x => Some x | Err _ _ => None end.

Lemma finish_sim : forall r1 r2, rsim r1 r2 -> outcome (Lines.bind W r1 finish) = outcome (Lines.bind W r2 finish).
Proof.
  intros [s|e1 w1] [t|e2 w2] H; cbn in H; try contradiction; [|reflexivity]. cbn [Lines.bind]. unfold Lines.finish.
  pose proof (flush_sim _ _ H) as F.
  destruct (flush s) as [s1|e1 w1], (flush t) as [t1|e2 w2]; cbn in F; try contradiction; cbn; [|reflexivity].
  destruct F as [c h p1 p2 cl cu d ln1 ln2 w P]. reflexivity.
Qed.

Definition blank_line : line := Line None true None 0.

(* C03_blank_lines: the text behind the inserted line runs from the same state but for the line counter *)
Theorem blank_lines : forall p r w, outcome (run (p ++ blank_line :: r) w) = outcome (run (p ++ r) w).
Proof.
  intros p r w. rewrite run_insert, run_app.
  destruct (run_upto p (init T V W w)) as [s|]; [|reflexivity]. cbn [Lines.bind].
  rewrite (step_line_quiet blank_line s eq_refl). cbn [Lines.bind].
  apply finish_sim, run_upto_sim. destruct s. constructor. apply psim_refl.
Qed.

End Blank.
