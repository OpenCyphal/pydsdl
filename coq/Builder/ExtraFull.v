(* Builder/ExtraFull.v - C03: an extra comment line or empty line changes neither acceptance nor anything but docs.
   Simulation that ignores docs, the comment buffer and line numbers; for empty lines (an earlier flush) the two runs
   are related "up to the flush each is about to make", which needs that a statement visits an identifier before it
   evaluates _offset_ (true of every statement of the grammar: _offset_ is an identifier). *)
From Coq Require Import ZArith List Bool.
From PV Require Import Builder.Lines Builder.Basics Builder.Blank Builder.Extra.
Import ListNotations.
Open Scope Z_scope.

Section ExtraFull.
Variables T V D W : Type.
Variable read_dep : D -> W -> W * option eloc.
Variable emit : Z -> text -> W -> W.
Hypothesis emit_blind : forall n n' t w, emit n t w = emit n' t w.

Notation st := (st T V W).
Notation line := (line T V D).
Notation schema := (schema T V).
Notation flush := (flush T V W).
Notation step_pre := (step_pre T V D W read_dep).
Notation run_pre := (run_pre T V D W read_dep).
Notation do_dir := (do_dir T V W emit).
Notation do_act := (do_act T V W emit).
Notation step_line := (step_line T V D W read_dep emit).
Notation run_upto := (run_upto T V D W read_dep emit).
Notation next_line := (next_line T V D W).
Notation run := (Lines.run T V D W read_dep emit).
Notation finish := (Lines.finish T V W).
Notation finalize := (Lines.finalize T V W).
Notation act_body := (act_body T V W emit).
Notation add_comment := (add_comment T V D W).
Notation quietb := (Spec.quietb T V D).
Notation psim := (psim T V).

(* schemas equal up to docs *)
Definition sdoc (c1 c2 : schema) : Prop :=
  map fst (c_fields T V c1) = map fst (c_fields T V c2) /\ map fst (c_consts T V c1) = map fst (c_consts T V c2)
  /\ c_mode T V c1 = c_mode T V c2 /\ c_union T V c1 = c_union T V c2 /\ c_offset T V c1 = c_offset T V c2.
Definition osdoc (o1 o2 : option schema) : Prop :=
  match o1, o2 with Some a, Some b => sdoc a b | None, None => True | _, _ => False end.

Inductive dsim : st -> st -> Prop :=
| dsim_intro : forall c1 c2 h p1 p2 cl1 cl2 cu1 cu2 d ln1 ln2 w, psim p1 p2 -> osdoc cl1 cl2 -> sdoc cu1 cu2 ->
    dsim (St T V W c1 h p1 cl1 cu1 d ln1 w) (St T V W c2 h p2 cl2 cu2 d ln2 w).

Notation rdsim := (res_rel dsim).

Lemma psim_trans : forall p q r, psim p q -> psim q r -> psim p r.
Proof. intros [[[a cf] n]|] [[[a' cf'] n']|] [[[a'' cf''] n'']|]; cbn; try tauto. intros [-> ->] [-> ->]; auto. Qed.

Lemma sdoc_refl : forall c, sdoc c c.
Proof. intros c. repeat split. Qed.
Lemma sdoc_trans : forall a b c, sdoc a b -> sdoc b c -> sdoc a c.
Proof. intros a b c (A1 & A2 & A3 & A4 & A5) (B1 & B2 & B3 & B4 & B5). repeat split; congruence. Qed.

Lemma osdoc_refl : forall o, osdoc o o.
Proof. intros [c|]; cbn; [apply sdoc_refl|exact I]. Qed.
Lemma osdoc_trans : forall a b c, osdoc a b -> osdoc b c -> osdoc a c.
Proof. intros [a|] [b|] [c|]; cbn; try tauto. apply sdoc_trans. Qed.

Lemma dsim_refl : forall s, dsim s s.
Proof. intros [c h p cl cu d ln w]. constructor; [apply psim_refl|apply osdoc_refl|apply sdoc_refl]. Qed.
Lemma dsim_trans : forall s t u, dsim s t -> dsim t u -> dsim s u.
Proof.
  intros s t u H1 H2. destruct H1 as [c1 c2 h p1 p2 cl1 cl2 cu1 cu2 d ln1 ln2 w P Cl Cu]. inversion H2; subst.
  constructor; [eapply psim_trans|eapply osdoc_trans|eapply sdoc_trans]; eauto.
Qed.

Lemma rdsim_trans : forall r1 r2 r3, rdsim r1 r2 -> rdsim r2 r3 -> rdsim r1 r3.
Proof. intros [s1|e1 w1] [s2|e2 w2] [s3|e3 w3]; cbn; try tauto; [apply dsim_trans|congruence]. Qed.

Lemma add_comment_dsim : forall l l' s t, dsim s t -> dsim (add_comment l s) (add_comment l' t).
Proof.
  intros l l' s t H. unfold Lines.add_comment. destruct H.
  destruct (l_comment T V D l), (l_comment T V D l'); constructor; assumption.
Qed.

Lemma next_line_dsim : forall l l' s t, dsim s t -> dsim (next_line l s) (next_line l' t).
Proof. intros l l' s t H. destruct H. constructor; assumption. Qed.

Lemma quiet_dsim : forall l s, dsim (next_line l (add_comment l s)) s.
Proof.
  intros l s. unfold Lines.add_comment. destruct (l_comment T V D l); destruct s;
    constructor; (apply psim_refl || apply osdoc_refl || apply sdoc_refl).
Qed.

Lemma sdoc_set_doc : forall d1 d2 c1 c2, sdoc c1 c2 -> sdoc (set_doc T V d1 c1) (set_doc T V d2 c2).
Proof. intros d1 d2 c1 c2 H. exact H. Qed.

Lemma sdoc_add_attr : forall a d1 d2 c1 c2, sdoc c1 c2 -> sdoc (add_attr T V a d1 c1) (add_attr T V a d2 c2).
Proof.
  intros a d1 d2 c1 c2 (A1 & A2 & A3 & A4 & A5). unfold Lines.add_attr. destruct (fieldlike T V a); repeat split; cbn; try assumption;
    rewrite !map_app; cbn; congruence.
Qed.

Lemma sdoc_commit_fails : forall a cf c1 c2, sdoc c1 c2 -> commit_fails T V a cf c1 = commit_fails T V a cf c2.
Proof. intros a cf c1 c2 (_ & _ & _ & A4 & A5). unfold commit_fails. rewrite A4, A5. reflexivity. Qed.

Lemma sdoc_has_attrs : forall c1 c2, sdoc c1 c2 -> has_attrs T V c1 = has_attrs T V c2.
Proof.
  intros c1 c2 (A1 & A2 & _). unfold has_attrs.
  destruct (c_fields T V c1), (c_fields T V c2); try discriminate; destruct (c_consts T V c1), (c_consts T V c2); try discriminate; reflexivity.
Qed.

(* The chain of Blank.v again, for the coarser relation.  sim is contained in dsim, but the two are separate inductives and
   dsim forgets the docs and the comment buffer that run_upto_sim keeps, so neither chain can be read off the other. *)
Lemma flush_dsim : forall s t, dsim s t -> rdsim (flush s) (flush t).
Proof.
  intros s t H. destruct H as [c1 c2 h p1 p2 cl1 cl2 cu1 cu2 d ln1 ln2 w P Cl Cu]. unfold Lines.flush. cbn.
  destruct h.
  - cbn. constructor; [exact P|exact Cl|exact Cu].
  - destruct p1 as [[[a cf] n]|], p2 as [[[a' cf'] n']|]; cbn in P; try contradiction.
    + destruct P as [-> ->]. rewrite (sdoc_commit_fails a' cf' _ _ Cu). destruct (commit_fails T V a' cf' cu2); cbn; [reflexivity|].
      constructor; [exact I|exact Cl|apply sdoc_add_attr; exact Cu].
    + cbn. constructor; [exact I|exact Cl|exact Cu].
Qed.

Lemma step_pre_dsim : forall p s t, dsim s t -> rdsim (step_pre p s) (step_pre p t).
Proof.
  intros p s t H. destruct p; cbn.
  - apply flush_dsim; exact H.
  - destruct H as [c1 c2 h p1 p2 cl1 cl2 cu1 cu2 d ln1 ln2 w P Cl Cu]. cbn. constructor; try assumption.
    destruct Cu as (A1 & A2 & A3 & A4 & A5). repeat split; assumption.
  - destruct H. cbn. reflexivity.
  - destruct H as [c1 c2 h p1 p2 cl1 cl2 cu1 cu2 dd ln1 ln2 w P Cl Cu]. cbn. destruct (read_dep d w) as [w1 [e|]]; cbn; [reflexivity|].
    constructor; assumption.
Qed.

Lemma run_pre_dsim : forall ps s t, dsim s t -> rdsim (run_pre ps s) (run_pre ps t).
Proof.
  induction ps as [|p ps IH]; intros s t H; cbn; [exact H|].
  eapply bind_res_rel; [apply step_pre_dsim; exact H|exact IH].
Qed.

Lemma do_dir_dsim : forall k g sh s t, dsim s t -> rdsim (do_dir k g sh s) (do_dir k g sh t).
Proof.
  intros k g sh s t H. rewrite !do_dir_guarded. destruct H as [c1 c2 h p1 p2 cl1 cl2 cu1 cu2 d ln1 ln2 w P Cl Cu]. cbn.
  rewrite (sdoc_has_attrs _ _ Cu). pose proof Cu as (A1 & A2 & A3 & A4 & A5). rewrite A3, A4.
  replace (is_some cl1) with (is_some cl2) by (destruct cl1, cl2; cbn in Cl; try contradiction; reflexivity).
  destruct (dir_ok k g _ _ _ _ _); [|reflexivity]. unfold dir_upd.
  destruct k; [| |destruct g| | | |]; cbn; rewrite ?(emit_blind ln1 ln2); constructor; try assumption; repeat split; assumption.
Qed.

Lemma act_body_dsim : forall x s1 t1, dsim s1 t1 -> rdsim (act_body x s1) (act_body x t1).
Proof.
  intros x s1 t1 H1. destruct x.
  - destruct H1 as [c1 c2 h p1 p2 cl1 cl2 cu1 cu2 d ln1 ln2 w P Cl Cu]. cbn.
    pose proof Cu as (_ & _ & A3 & _). rewrite A3. destruct (c_mode T V cu2) as [[|z]|]; cbn; try reflexivity;
      constructor; cbn; auto.
  - apply do_dir_dsim. exact H1.
  - destruct H1 as [c1 c2 h p1 p2 cl1 cl2 cu1 cu2 d ln1 ln2 w P Cl Cu]. cbn.
    destruct cl1, cl2; cbn in Cl; try contradiction; cbn; [reflexivity|]. constructor; [exact P|exact Cu|apply sdoc_refl].
Qed.

Lemma do_act_dsim : forall x s t, dsim s t -> rdsim (do_act x s) (do_act x t).
Proof. intros x s t H. eapply bind_res_rel; [apply flush_dsim; exact H|apply act_body_dsim]. Qed.

Lemma step_line_dsim : forall l s t, dsim s t -> rdsim (step_line l s) (step_line l t).
Proof.
  intros l s t H. unfold Lines.step_line. eapply bind_res_rel.
  - destruct (l_stmt T V D l) as [x|]; [|exact H]. unfold Lines.do_stmt.
    eapply bind_res_rel; [apply run_pre_dsim; exact H|]. intros; apply do_act_dsim; assumption.
  - intros s1 t1 H1. pose proof (add_comment_dsim l l _ _ H1) as A.
    destruct (is_empty_text T V D l); [apply flush_dsim; exact A|exact A].
Qed.

Lemma run_upto_dsim : forall ls s t, dsim s t -> rdsim (run_upto ls s) (run_upto ls t).
Proof.
  induction ls as [|l r IH]; intros s t H; cbn [Basics.run_upto]; [exact H|].
  eapply bind_res_rel; [apply step_line_dsim; exact H|]. intros s1 t1 H1. apply IH, next_line_dsim, H1.
Qed.

(* what C03 observes modulo docs *)
Definition outcome_undoc (r : res W (model T V * W)) :=
  match r with Ok (m, w) => Some (undoc T V m, w) | Err _ _ => None end.

Lemma close_sdoc : forall c1 c2, sdoc c1 c2 ->
  match close T V c1, close T V c2 with
  | Some k1, Some k2 => undoc_sect T V k1 = undoc_sect T V k2
  | None, None => True
  | _, _ => False
  end.
Proof.
  intros c1 c2 (A1 & A2 & A3 & A4 & A5). unfold close. rewrite A3, A4.
  assert (L : length (c_fields T V c1) = length (c_fields T V c2)).
  { rewrite <- (map_length fst (c_fields T V c1)), A1, map_length. reflexivity. }
  rewrite L. destruct (c_mode T V c2) as [mo|]; [|exact I].
  destruct (c_union T V c2 && _); [exact I|]. unfold undoc_sect. cbn. rewrite A1, A2. reflexivity.
Qed.

Lemma finalize_dsim : forall r1 r2, rdsim r1 r2 ->
  outcome_undoc (Lines.bind W r1 finalize) = outcome_undoc (Lines.bind W r2 finalize).
Proof.
  intros [s|e1 w1] [t|e2 w2] H; cbn in H; try contradiction; [|reflexivity]. cbn [Lines.bind].
  destruct H as [c1 c2 h p1 p2 cl1 cl2 cu1 cu2 d ln1 ln2 w P Cl Cu]. unfold Lines.finalize. cbn.
  pose proof (close_sdoc _ _ Cu) as Hc.
  destruct cl1 as [q1|], cl2 as [q2|]; cbn in Cl; try contradiction.
  - pose proof (close_sdoc _ _ Cl) as Hq.
    destruct (close T V q1), (close T V q2); try contradiction; destruct (close T V cu1), (close T V cu2); try contradiction; cbn; try reflexivity.
    unfold undoc. cbn. rewrite Hq, Hc. reflexivity.
  - destruct (close T V cu1), (close T V cu2); try contradiction; cbn; try reflexivity. unfold undoc. cbn. rewrite Hc. reflexivity.
Qed.

(* This is what relates a text with an extra empty line to the text without it: the one has flushed already, the other
   will at its next identifier, handler or empty line; until then it only collects comments and reads dependencies. *)
Definition fsim (a b : st) : Prop := rdsim (flush a) (flush b).
Notation rfsim := (res_rel fsim).

Lemma dsim_fsim : forall a b, dsim a b -> fsim a b.
Proof. exact flush_dsim. Qed.

Lemma finish_fsim : forall r1 r2, rfsim r1 r2 -> outcome_undoc (Lines.bind W r1 finish) = outcome_undoc (Lines.bind W r2 finish).
Proof.
  intros r1 r2 H. unfold Lines.finish. rewrite <- !(bind_assoc W). apply finalize_dsim.
  eapply bind_res_rel; [exact H|]. intros a b F. exact F.
Qed.

(* a quiet line (a comment, or blanks only) inserted anywhere: same acceptance, same model up to docs, same world *)
Theorem quiet_lines : forall p x r w, quietb x = true ->
  outcome_undoc (run (p ++ x :: r) w) = outcome_undoc (run (p ++ r) w).
Proof.
  intros p x r w Hq. rewrite run_insert, run_app.
  destruct (run_upto p (init T V W w)) as [s|]; [|reflexivity]. cbn [Lines.bind].
  rewrite (step_line_quiet x s Hq). cbn [Lines.bind].
  apply finish_fsim, (res_rel_impl dsim fsim _ _ dsim_fsim), run_upto_dsim, quiet_dsim.
Qed.

Corollary comment_lines : forall p x r w, l_stmt T V D x = None -> l_comment T V D x <> None ->
  outcome_undoc (run (p ++ x :: r) w) = outcome_undoc (run (p ++ r) w).
Proof.
  intros p x r w Hs Hc. apply quiet_lines. unfold Spec.quietb, is_empty_text. rewrite Hs.
  destruct (l_comment T V D x); [reflexivity|congruence].
Qed.

Lemma fsim_world : forall a b, fsim a b -> Lines.world T V W a = Lines.world T V W b.
Proof.
  intros a b F. unfold fsim in F. destruct (flush a) as [a'|ea wa] eqn:Ea, (flush b) as [b'|eb wb] eqn:Eb; cbn in F; try contradiction.
  - destruct (flush_frame _ _ Ea) as (_ & _ & _ & _ & _ & _ & <-). destruct (flush_frame _ _ Eb) as (_ & _ & _ & _ & _ & _ & <-).
    destruct F. reflexivity.
  - rewrite <- (flush_err_world _ _ _ Ea), <- (flush_err_world _ _ _ Eb). exact F.
Qed.

Lemma fsim_set_world : forall w a b, fsim a b -> fsim (set_world T V W w a) (set_world T V W w b).
Proof.
  intros w a b. unfold fsim. rewrite !flush_set_world.
  destruct (flush a), (flush b); cbn; try contradiction; [|reflexivity]. intros H. destruct H. constructor; assumption.
Qed.

Lemma fsim_next_line : forall l l' a b, fsim a b -> fsim (next_line l a) (next_line l' b).
Proof.
  intros l l' a b. unfold fsim, Lines.next_line. rewrite !flush_set_line.
  destruct (flush a), (flush b); cbn; try contradiction; [|exact (fun H => H)]. intros H. destruct H. constructor; assumption.
Qed.

(* the comment buffer only ends up in docs *)
Lemma flush_add_comment : forall l s,
  rdsim (flush (add_comment l s)) (flush s) /\ rdsim (flush s) (flush (add_comment l s)).
Proof.
  intros l s. split.
  - exact (flush_dsim _ _ (add_comment_dsim l empty_line s s (dsim_refl s))).
  - exact (flush_dsim _ _ (add_comment_dsim empty_line l s s (dsim_refl s))).
Qed.

Lemma fsim_add_comment : forall l l' a b, fsim a b -> fsim (add_comment l a) (add_comment l' b).
Proof.
  intros l l' a b F. unfold fsim.
  apply (rdsim_trans _ (flush a)); [apply flush_add_comment|].
  apply (rdsim_trans _ (flush b)); [exact F|apply flush_add_comment].
Qed.

(* no _offset_ (and nothing else that looks at the schema) before the first identifier *)
Fixpoint gl_pre (ps : list (pre D)) : Prop :=
  match ps with
  | [] => True
  | PIdent :: _ => True
  | POffset :: _ => False
  | PRaise :: _ => True
  | PRead _ :: r => gl_pre r
  end.
Definition gl_line (l : line) : Prop := forall x, l_stmt T V D l = Some x -> gl_pre (s_pre T V D x).

(* up to its first identifier a statement does not look at what the flush would change; there (or at the latest in
   front of the handler) both sides flush *)
Lemma do_stmt_fsim : forall ps act a b, fsim a b -> gl_pre ps ->
  rdsim (Lines.bind W (run_pre ps a) (do_act act)) (Lines.bind W (run_pre ps b) (do_act act)).
Proof.
  induction ps as [|p ps IH]; intros act a b F G.
  - cbn [Lines.run_pre Lines.bind]. eapply bind_res_rel; [exact F|apply act_body_dsim].
  - destruct p; cbn in G; try contradiction; cbn [Lines.run_pre Lines.step_pre].
    + eapply bind_res_rel; [eapply bind_res_rel; [exact F|apply run_pre_dsim]|]. intros; apply do_act_dsim; assumption.
    + cbn. apply fsim_world, F.
    + rewrite (fsim_world _ _ F). destruct (read_dep d (Lines.world T V W b)) as [w1 [e|]]; cbn [Lines.bind]; [reflexivity|].
      apply IH; [apply fsim_set_world; exact F|exact G].
Qed.

Lemma step_line_fsim : forall l a b, fsim a b -> gl_line l -> rfsim (step_line l a) (step_line l b).
Proof.
  intros l a b F G. destruct (line_kind l) as [[[ps act] Hx]|[Hq|He]].
  - rewrite !(step_line_stmt _ _ _ Hx). apply (res_rel_impl dsim fsim _ _ dsim_fsim).
    eapply bind_res_rel; [apply (do_stmt_fsim ps act a b F (G _ Hx))|]. intros a1 b1 H. apply add_comment_dsim, H.
  - rewrite !(step_line_quiet _ _ Hq). apply fsim_add_comment, F.
  - rewrite !(step_line_empty _ _ He). apply (res_rel_impl dsim fsim _ _ dsim_fsim), F.
Qed.

Lemma run_upto_fsim : forall ls a b, fsim a b -> Forall gl_line ls -> rfsim (run_upto ls a) (run_upto ls b).
Proof.
  induction ls as [|l r IH]; intros a b F G; cbn [Basics.run_upto]; [exact F|].
  inversion G as [|? ? G1 G2]; subst.
  eapply bind_res_rel; [apply step_line_fsim; assumption|]. intros a1 b1 F1. apply IH; [apply fsim_next_line, F1|exact G2].
Qed.

(* Nothing short of a flush changes the queued attribute or the flags add_field looks at, so the run fails at its next
   identifier, handler or empty line, or at the end of the text. *)
Definition stuck (s : st) : Prop := match flush s with Ok _ => False | Err _ _ => True end.

Lemma stuck_bind : forall (A : Type) s (f : st -> res W A), stuck s -> exists e w, Lines.bind W (flush s) f = Err e w.
Proof. intros A s f. unfold stuck. destruct (flush s); [contradiction|]. cbn. eauto. Qed.

Lemma do_stmt_stuck : forall ps act s, stuck s -> gl_pre ps ->
  exists e w, Lines.bind W (run_pre ps s) (do_act act) = Err e w.
Proof.
  induction ps as [|p ps IH]; intros act s S G.
  - apply stuck_bind, S.
  - destruct p; cbn in G; try contradiction; cbn [Lines.run_pre Lines.step_pre].
    + destruct (stuck_bind _ s (run_pre ps) S) as (e & w & ->). cbn. eauto.
    + cbn. eauto.
    + destruct (read_dep d (Lines.world T V W s)) as [w1 [e1|]]; cbn [Lines.bind]; [eauto|].
      apply IH; [|exact G]. unfold stuck in *. rewrite flush_set_world. destruct (flush s); [contradiction|exact I].
Qed.

Lemma step_line_stuck : forall l s, stuck s -> gl_line l ->
  match step_line l s with Ok s1 => stuck s1 | Err _ _ => True end.
Proof.
  intros l s S G. destruct (line_kind l) as [[[ps act] Hx]|[Hq|He]].
  - rewrite (step_line_stmt _ _ _ Hx). unfold Lines.do_stmt. cbn [s_pre s_act].
    destruct (do_stmt_stuck ps act s S (G _ Hx)) as (e & w & ->). exact I.
  - rewrite (step_line_quiet _ _ Hq). cbn. unfold stuck in *.
    pose proof (proj1 (flush_add_comment l s)) as F.
    destruct (flush (add_comment l s)), (flush s); cbn in F; try contradiction; exact I.
  - rewrite (step_line_empty _ _ He). unfold stuck in S. destruct (flush s); [contradiction|exact I].
Qed.

Lemma run_stuck : forall ls s, stuck s -> Forall gl_line ls -> outcome_undoc (Lines.bind W (run_upto ls s) finish) = None.
Proof.
  induction ls as [|l r IH]; intros s S G.
  - cbn. unfold Lines.finish. destruct (stuck_bind _ s finalize S) as (e & w & ->). reflexivity.
  - inversion G as [|? ? G1 G2]; subst. cbn [Basics.run_upto]. pose proof (step_line_stuck l s S G1) as S1.
    destruct (step_line l s) as [s1|]; cbn [Lines.bind]; [|reflexivity].
    apply IH; [|exact G2]. unfold stuck, Lines.next_line in *. rewrite flush_set_line. destruct (flush s1); [contradiction|exact I].
Qed.

(* an empty line inserted anywhere: the flush happens earlier *)
Theorem empty_lines : forall p r w, Forall gl_line r ->
  outcome_undoc (run (p ++ empty_line :: r) w) = outcome_undoc (run (p ++ r) w).
Proof.
  intros p r w G. rewrite run_insert, run_app.
  destruct (run_upto p (init T V W w)) as [s|] eqn:E; [|reflexivity]. cbn [Lines.bind].
  pose proof (run_upto_good T V D W read_dep emit _ _ _ (good_init T V W w) E) as Gs.
  rewrite (step_line_empty empty_line s eq_refl).
  destruct (flush s) as [f|e w0] eqn:Ef; cbn [Lines.bind].
  - apply finish_fsim, run_upto_fsim; [|exact G].
    unfold fsim, Lines.next_line. rewrite flush_set_line, (flush_idem T V W _ _ Gs Ef), Ef.
    exact (quiet_dsim empty_line f).
  - symmetry. apply run_stuck; [unfold stuck; rewrite Ef; exact I|exact G].
Qed.

End ExtraFull.
