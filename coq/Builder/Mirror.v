(* Builder/Mirror.v - C03_mirror: whenever the line machine accepts, the model it returns is the declaratively defined
   content of the text (Builder/Spec.v). *)
From Coq Require Import ZArith List Bool.
From PV Require Import Builder.Lines Builder.Basics Builder.Spec.
Import ListNotations.
Open Scope Z_scope.

Section Mirror.
Variables T V D W : Type.
Variable read_dep : D -> W -> W * option eloc.
Variable emit : Z -> text -> W -> W.

Notation st := (st T V W).
Notation line := (line T V D).
Notation schema := (schema T V).
Notation flush := (flush T V W).
Notation step_pre := (step_pre T V D W read_dep).
Notation run_pre := (run_pre T V D W read_dep).
Notation do_dir := (do_dir T V W emit).
Notation step_line := (step_line T V D W read_dep emit).
Notation run_upto := (run_upto T V D W read_dep emit).
Notation next_line := (next_line T V D W).
Notation good := (good T V W).
Notation header := (header T V W).
Notation pending := (pending T V W).
Notation comment := (comment T V W).
Notation cur := (cur T V W).
Notation closed := (closed T V W).
Notation deprecated := (deprecated T V W).
Notation set_buf := (set_buf T V W).
Notation add_attr := (add_attr T V).
Notation own := (own T V D).
Notation lead := (lead T V D).
Notation attrs_of := (attrs_of T V D).
Notation quietb := (quietb T V D).

(* the current schema as it will be once the buffered comment has been flushed *)
Definition flushed (s : st) : schema :=
  if header s then set_doc T V (comment s) (cur s)
  else match pending s with
       | Some (a, _, _) => add_attr a (comment s) (cur s)
       | None => cur s
       end.

(* fields, constants and doc agree (flags and the offset mark are tracked separately) *)
Definition ceq (c1 c2 : schema) : Prop :=
  c_fields T V c1 = c_fields T V c2 /\ c_consts T V c1 = c_consts T V c2 /\ c_doc T V c1 = c_doc T V c2.

Lemma ceq_refl : forall c, ceq c c.
Proof. intros c. repeat split. Qed.
Lemma ceq_sym : forall a b, ceq a b -> ceq b a.
Proof. intros a b (H1 & H2 & H3). repeat split; congruence. Qed.
Lemma ceq_trans : forall a b c, ceq a b -> ceq b c -> ceq a c.
Proof. intros a b c (H1 & H2 & H3) (K1 & K2 & K3). repeat split; congruence. Qed.

Lemma ceq_add_attr : forall a d c1 c2, ceq c1 c2 -> ceq (add_attr a d c1) (add_attr a d c2).
Proof.
  intros a d c1 c2 (H1 & H2 & H3). unfold Lines.add_attr. destruct (fieldlike T V a); repeat split; cbn; congruence.
Qed.

(* the flags of a schema and, with them, the part of the state that only the handlers change *)
Definition flags (c : schema) : option mode * bool := (c_mode T V c, c_union T V c).
Definition frame (s : st) : option schema * bool * (option mode * bool) := (closed s, deprecated s, flags (cur s)).

Lemma frame_inv : forall a b : st, frame a = frame b ->
  closed a = closed b /\ deprecated a = deprecated b
  /\ c_mode T V (cur a) = c_mode T V (cur b) /\ c_union T V (cur a) = c_union T V (cur b).
Proof. intros a b E. injection E. auto. Qed.

Lemma flags_flushed : forall s : st, flags (flushed s) = flags (cur s).
Proof.
  intros s. unfold flushed, flags. destruct (header s); [reflexivity|]. destruct (pending s) as [[[a cf] k]|]; [|reflexivity].
  unfold Lines.add_attr. destruct (fieldlike T V a); reflexivity.
Qed.

Lemma flush_cur : forall s f : st, flush s = Ok f -> cur f = flushed s.
Proof.
  intros s f. unfold Lines.flush, flushed. destruct (header s); [|destruct (pending s) as [[[a cf] k]|]; [destruct (commit_fails T V a cf _)|]];
    try discriminate; intros E; injection E as <-; reflexivity.
Qed.

(* an idle state: nothing waits for the comment buffer *)
Lemma flushed_idle : forall s : st, header s = false -> pending s = None -> flushed s = cur s.
Proof. intros s H P. unfold flushed. rewrite H, P. reflexivity. Qed.

Lemma flush_idle : forall s f : st, good s -> flush s = Ok f ->
  header f = false /\ pending f = None /\ comment f = [] /\ cur f = flushed s /\ frame f = frame s.
Proof.
  intros s f G E. destruct (flush_frame _ _ E) as (H & B & _ & Cl & De & _).
  repeat split; [exact H|exact (flush_no_pending _ _ G E)|exact B|exact (flush_cur _ _ E)|].
  unfold frame. rewrite Cl, De, (flush_cur _ _ E), flags_flushed. reflexivity.
Qed.

Lemma step_pre_inv : forall p (s s2 : st), good s -> step_pre p s = Ok s2 ->
  ceq (flushed s2) (flushed s) /\ frame s2 = frame s.
Proof.
  intros p s s2 G. destruct p; cbn.
  - intros E. destruct (flush_idle _ _ G E) as (H & P & _ & C & F). rewrite (flushed_idle _ H P), C. split; [apply ceq_refl|exact F].
  - intros E; injection E as <-. unfold flushed, ceq. cbn.
    split; [|reflexivity]. destruct (header s); [cbn; auto|]. destruct (pending s) as [[[a cf] k]|]; [|cbn; auto].
    unfold Lines.add_attr. destruct (fieldlike T V a); cbn; auto.
  - discriminate.
  - destruct (read_dep d (world T V W s)) as [w1 [e|]]; [discriminate|]. intros E; injection E as <-.
    split; [apply ceq_refl|reflexivity].
Qed.

Lemma run_pre_inv : forall ps (s s2 : st), good s -> run_pre ps s = Ok s2 ->
  good s2 /\ ceq (flushed s2) (flushed s) /\ frame s2 = frame s.
Proof.
  induction ps as [|p ps IH]; intros s s2 G; cbn.
  - intros E; injection E as <-. split; [exact G|]. split; [apply ceq_refl|reflexivity].
  - intros E. apply bind_inv in E. destruct E as (s1 & E1 & E).
    destruct (step_pre_inv _ _ _ G E1) as (A1 & A2).
    destruct (IH _ _ (step_pre_good T V D W read_dep _ _ _ G E1) E) as (B0 & B1 & B2).
    split; [exact B0|]. split; [eapply ceq_trans; eauto|congruence].
Qed.

Notation mkdoc_from := Spec.mkdoc_from.
Notation mkdoc := Spec.mkdoc.
Notation attr_of := (attr_of T V D).
Notation is_marker := (is_marker T V D).
Notation dir_of := (dir_of T V D).
Notation act_body := (act_body T V W emit).
Notation add_comment := (add_comment T V D W).

(* a statement line: the state f in which the handler runs is idle, holds the content announced in front of the
   line, and has the frame of the state in front of the line *)
Lemma stmt_line_inv : forall (l : line) ps act (s s1 : st), good s -> l_stmt T V D l = Some (Stmt ps act) ->
  step_line l s = Ok s1 ->
  exists f s3 : st, act_body act f = Ok s3 /\ s1 = add_comment l s3
    /\ header f = false /\ pending f = None /\ comment f = [] /\ ceq (cur f) (flushed s) /\ frame f = frame s.
Proof.
  intros l ps act s s1 G Hx E. rewrite (step_line_stmt _ _ _ Hx) in E.
  apply bind_inv in E. destruct E as (s3 & E & E1). unfold Lines.do_stmt in E. cbn [s_pre s_act] in E.
  apply bind_inv in E. destruct E as (s2 & E2 & E). rewrite do_act_body in E.
  apply bind_inv in E. destruct E as (f & Ef & E3).
  destruct (run_pre_inv _ _ _ G E2) as (G2 & C2 & F2). destruct (flush_idle _ _ G2 Ef) as (H & P & B & C & F).
  exists f, s3. injection E1 as <-. rewrite C, F. auto 10.
Qed.

Lemma attr_queued : forall a cf (f s3 : st), act_body (XAttr a cf) f = Ok s3 ->
  s3 = set_pending T V W (Some (a, cf, line_no T V W f)) f.
Proof.
  intros a cf f s3. cbn. destruct (c_mode T V (cur f)) as [[|z]|]; try discriminate; intros E; injection E as <-; reflexivity.
Qed.

Definition with_doc (s : st) (cs : list text) : st := set_buf (mkdoc_from (comment s) cs) s.
(* the current schema as it will be once the quiet lines at the beginning of r have been absorbed and flushed *)
Definition carry (s : st) (r : list line) : schema := flushed (with_doc s (lead r)).
Definition ext1 (c : schema) (l : line) (r : list line) : schema :=
  match attr_of l with Some a => add_attr a (mkdoc (own l ++ lead r)) c | None => c end.

Lemma mkdoc_from_app : forall b xs ys, mkdoc_from b (xs ++ ys) = mkdoc_from (mkdoc_from b xs) ys.
Proof. intros. unfold Spec.mkdoc_from. apply fold_left_app. Qed.

Lemma flushed_next_line : forall l (s : st), flushed (next_line l s) = flushed s.
Proof. reflexivity. Qed.

Lemma carry_next_line : forall l (s : st) r, carry (next_line l s) r = carry s r.
Proof. reflexivity. Qed.

Lemma carry_idle : forall (s : st) r, header s = false -> pending s = None -> carry s r = cur s.
Proof. intros s r H P. unfold carry, with_doc, flushed. cbn. rewrite H, P. reflexivity. Qed.

Lemma carry_loud : forall (s : st) l r, quietb l = false -> carry s (l :: r) = flushed s.
Proof. intros s l r Q. unfold carry. cbn [Spec.lead]. rewrite Q. reflexivity. Qed.

Lemma carry_quiet : forall (s : st) l r, quietb l = true -> carry (add_comment l s) r = carry s (l :: r).
Proof.
  intros s l r Q. unfold carry. cbn [Spec.lead]. rewrite Q.
  unfold Lines.add_comment, Spec.own. destruct (l_comment T V D l); reflexivity.
Qed.

Lemma add_comment_idle : forall l (s : st),
  header (add_comment l s) = header s /\ pending (add_comment l s) = pending s /\ cur (add_comment l s) = cur s.
Proof. intros l s. unfold Lines.add_comment. destruct (l_comment T V D l); auto. Qed.

Lemma stmt_loud : forall (l : line) x, l_stmt T V D l = Some x -> quietb l = false.
Proof. intros l x E. unfold Spec.quietb. rewrite E. reflexivity. Qed.

Lemma empty_loud : forall l : line, is_empty_text T V D l = true -> quietb l = false /\ l_stmt T V D l = None.
Proof.
  intros l. unfold Spec.quietb, is_empty_text. destruct (l_stmt T V D l); [discriminate|].
  intros E. split; [|reflexivity]. destruct (l_comment T V D l); [discriminate|]. rewrite E. reflexivity.
Qed.

Lemma quiet_no_stmt : forall l : line, quietb l = true -> l_stmt T V D l = None.
Proof. intros l. unfold Spec.quietb. destruct (l_stmt T V D l); [discriminate|reflexivity]. Qed.

Definition opt_list {A : Type} (o : option A) : list A := match o with Some x => [x] | None => [] end.

(* The frame only grows: the request schema stays, @union and @deprecated are switched on, and the mode can be set
   once, so the modes set so far form a list. *)
Definition grows (u : bool) (ms : list mode) (d : bool) (s s1 : st) : Prop :=
  closed s1 = closed s
  /\ c_union T V (cur s1) = c_union T V (cur s) || u
  /\ opt_list (c_mode T V (cur s1)) = opt_list (c_mode T V (cur s)) ++ ms
  /\ deprecated s1 = deprecated s || d.

Lemma grows_frame : forall u ms d (s s' s1 s1' : st), frame s' = frame s -> frame s1' = frame s1 ->
  grows u ms d s s1 -> grows u ms d s' s1'.
Proof.
  intros u ms d s s' s1 s1' F F1 G. unfold grows.
  destruct (frame_inv _ _ F) as (-> & -> & -> & ->). destruct (frame_inv _ _ F1) as (-> & -> & -> & ->). exact G.
Qed.

Lemma grows_none : forall s : st, grows false [] false s s.
Proof. intros s. unfold grows. rewrite !orb_false_r, app_nil_r. auto. Qed.

Lemma grows_trans : forall u ms d u' ms' d' (s s1 s2 : st),
  grows u ms d s s1 -> grows u' ms' d' s1 s2 -> grows (u || u') (ms ++ ms') (d || d') s s2.
Proof.
  intros u ms d u' ms' d' s s1 s2 (A1 & A2 & A3 & A4) (B1 & B2 & B3 & B4). unfold grows.
  rewrite B1, B2, B3, B4, A1, A2, A3, A4, !orb_assoc, app_assoc. auto.
Qed.

Lemma do_dir_effect : forall k g sh (f s3 : st), do_dir k g sh f = Ok s3 ->
  ceq (cur s3) (cur f)
  /\ grows (match k with KUnion => true | _ => false end) (mode_of_dir (k, g)) (match k with KDeprecated => true | _ => false end) f s3.
Proof.
  intros k g sh f s3. unfold Lines.do_dir, raise_here, raise_at, ceq, grows.
  destruct k.
  - intros E; injection E as <-; cbn. rewrite !orb_false_r, app_nil_r. auto 10.
  - destruct g as [|[|]| |]; try discriminate; intros E; injection E as <-; cbn; rewrite !orb_false_r, app_nil_r; auto 10.
  - destruct (c_mode T V (cur f)) eqn:Em; [discriminate|]. destruct g; try discriminate; intros E; injection E as <-; cbn; rewrite !orb_false_r; auto 10.
  - destruct (c_mode T V (cur f)) eqn:Em; [discriminate|]. destruct g; try discriminate; intros E; injection E as <-; cbn; rewrite !orb_false_r; auto 10.
  - destruct g; try discriminate. destruct (_ || _); try discriminate; intros E; injection E as <-; cbn; rewrite !orb_false_r, app_nil_r, orb_true_r; auto 10.
  - destruct g; try discriminate. destruct (_ || _); try discriminate; intros E; injection E as <-; cbn; rewrite !orb_false_r, app_nil_r, orb_true_r; auto 10.
  - discriminate.
Qed.

Definition line_modes (l : line) : list mode := match dir_of l with Some kg => mode_of_dir kg | None => [] end.
Definition line_is (k : dkind) (l : line) : bool := has_dir T V D k [l].
Definition line_grows (l : line) : st -> st -> Prop := grows (line_is KUnion l) (line_modes l) (line_is KDeprecated l).

Lemma frame_add_comment : forall l (s : st), frame (add_comment l s) = frame s.
Proof. intros l s. unfold Lines.add_comment. destruct (l_comment T V D l); reflexivity. Qed.

Lemma line_grows_none : forall l (s s1 : st), dir_of l = None -> frame s1 = frame s -> line_grows l s s1.
Proof.
  intros l s s1 N F. unfold line_grows, line_is, line_modes, Spec.has_dir. cbn [existsb]. rewrite N.
  exact (grows_frame _ _ _ s s s s1 eq_refl F (grows_none s)).
Qed.

(* A line without marker: the content in front of the next line, comments that continue it included, is the content
   in front of this line extended by the attribute of this line with its whole doc; the frame grows by its directive. *)
Lemma line_step : forall l r (s s1 : st), good s -> is_marker l = false -> step_line l s = Ok s1 ->
  ceq (carry (next_line l s1) r) (ext1 (carry s (l :: r)) l r) /\ line_grows l s s1.
Proof.
  intros l r s s1 G M E. rewrite carry_next_line. unfold ext1, Spec.attr_of.
  destruct (line_kind l) as [[[ps act] Hx]|[Hq|He]].
  - rewrite Hx, (carry_loud _ _ _ (stmt_loud _ _ Hx)).
    destruct (stmt_line_inv _ _ _ _ _ G Hx E) as (f & s3 & E3 & -> & H & P & B & C & F).
    enough (K : ceq (carry (add_comment l s3) r)
                    match act with XAttr a _ => add_attr a (mkdoc (own l ++ lead r)) (cur f) | _ => cur f end
                /\ line_grows l f s3).
    { destruct K as [K1 K2]. split; [|exact (grows_frame _ _ _ _ _ _ _ (eq_sym F) (frame_add_comment l s3) K2)].
      eapply ceq_trans; [exact K1|]. destruct act; [apply ceq_add_attr, C|exact C..]. }
    unfold Spec.is_marker in M. rewrite Hx in M. destruct act as [a cf|k g sh|]; [| |discriminate].
    + rewrite (attr_queued _ _ _ _ E3). split; [|apply line_grows_none; [unfold Spec.dir_of; rewrite Hx|]; reflexivity].
      unfold carry, with_doc, flushed, Lines.add_comment, Spec.own.
      destruct (l_comment T V D l); cbn; rewrite H, B; apply ceq_refl.
    + destruct (do_dir_frame T V W emit _ _ _ _ _ E3) as (H1 & H2 & _).
      destruct (add_comment_idle l s3) as (A1 & A2 & A3). destruct (do_dir_effect _ _ _ _ _ E3) as (K1 & K2).
      rewrite carry_idle, A3; [|congruence..]. split; [exact K1|].
      unfold line_grows, line_is, line_modes, Spec.has_dir, Spec.dir_of. cbn [existsb]. rewrite Hx, !orb_false_r.
      destruct k; exact K2.
  - rewrite (step_line_quiet _ _ Hq) in E. injection E as <-. pose proof (quiet_no_stmt _ Hq) as N.
    rewrite N, (carry_quiet _ _ _ Hq). split; [apply ceq_refl|].
    apply line_grows_none; [unfold Spec.dir_of; rewrite N; reflexivity|apply frame_add_comment].
  - destruct (empty_loud _ He) as (Q & N). rewrite N. rewrite (step_line_empty _ _ He) in E.
    destruct (flush_idle _ _ G E) as (H & P & _ & C & F). rewrite (carry_idle _ _ H P), (carry_loud _ _ _ Q), C.
    split; [apply ceq_refl|]. apply line_grows_none; [unfold Spec.dir_of; rewrite N; reflexivity|exact F].
Qed.

Definition ext (c : schema) (ads : list (attr T V * text)) : schema :=
  fold_left (fun c ad => add_attr (fst ad) (snd ad) c) ads c.

Lemma ext_ceq : forall ads c1 c2, ceq c1 c2 -> ceq (ext c1 ads) (ext c2 ads).
Proof.
  induction ads as [|ad ads IH]; intros c1 c2 H; [exact H|].
  change (ceq (ext (add_attr (fst ad) (snd ad) c1) ads) (ext (add_attr (fst ad) (snd ad) c2) ads)).
  apply IH. apply ceq_add_attr. exact H.
Qed.

Lemma ext_content : forall ads c,
  c_fields T V (ext c ads) = c_fields T V c ++ filter (is_field T V) ads
  /\ c_consts T V (ext c ads) = c_consts T V c ++ filter (is_const T V) ads
  /\ c_doc T V (ext c ads) = c_doc T V c.
Proof.
  induction ads as [|[a d] ads IH]; intros c.
  - cbn. rewrite !app_nil_r. auto.
  - change (ext c ((a, d) :: ads)) with (ext (add_attr a d c) ads).
    destruct (IH (add_attr a d c)) as (H1 & H2 & H3). rewrite H1, H2, H3.
    cbn [filter]. unfold Lines.add_attr, Spec.is_field, Spec.is_const. cbn [fst].
    destruct (fieldlike T V a); cbn; rewrite <- ?app_assoc; auto.
Qed.

Definition no_marker (ls : list line) : Prop := Forall (fun l => is_marker l = false) ls.

Lemma has_dir_app : forall k a b, has_dir T V D k (a ++ b) = has_dir T V D k a || has_dir T V D k b.
Proof. intros. unfold Spec.has_dir. apply existsb_app. Qed.

Theorem section_run : forall ls (s s' : st), good s -> no_marker ls -> run_upto ls s = Ok s' ->
  good s' /\ ceq (flushed s') (ext (carry s ls) (attrs_of ls))
  /\ grows (has_dir T V D KUnion ls) (mode_dirs T V D ls) (has_dir T V D KDeprecated ls) s s'.
Proof.
  induction ls as [|l r IH]; intros s s' G M; cbn [Basics.run_upto].
  - intros E; injection E as <-. split; [exact G|]. split; [|apply grows_none].
    apply ceq_refl.
  - inversion M as [|? ? M1 M2]; subst. intros E. apply bind_inv in E. destruct E as (s1 & E1 & E).
    pose proof (step_line_good T V D W read_dep emit _ _ _ G E1) as G1.
    destruct (IH (next_line l s1) _ G1 M2 E) as (Gs & Ce & Gr). destruct (line_step l r s s1 G M1 E1) as (LC & LG).
    split; [exact Gs|]. split.
    + eapply ceq_trans; [exact Ce|]. eapply ceq_trans; [apply ext_ceq, LC|].
      unfold ext1. cbn [Spec.attrs_of]. destruct (attr_of l); apply ceq_refl.
    + change (l :: r) with ([l] ++ r). rewrite !has_dir_app. exact (grows_trans _ _ _ _ _ _ _ _ _ LG Gr).
Qed.

Lemma marker_line : forall l (s s1 : st), good s -> is_marker l = true -> step_line l s = Ok s1 ->
  closed s = None /\ good s1 /\ exists c, closed s1 = Some c /\ ceq c (flushed s) /\ flags c = flags (cur s)
  /\ cur s1 = schema0 T V /\ header s1 = true /\ comment s1 = mkdoc (own l) /\ deprecated s1 = deprecated s.
Proof.
  intros l s s1 G M E. pose proof (step_line_good T V D W read_dep emit l s s1 G E) as G1.
  unfold Spec.is_marker in M. destruct (l_stmt T V D l) as [[ps act]|] eqn:Hx; [|discriminate]. destruct act; try discriminate.
  destruct (stmt_line_inv _ _ _ _ _ G Hx E) as (f & s3 & E3 & -> & H & P & B & C & F).
  destruct (frame_inv _ _ F) as (F1 & F2 & F3 & F4). cbn in E3. rewrite F1 in E3.
  destruct (closed s); [discriminate|]. injection E3 as <-. split; [reflexivity|]. split; [exact G1|].
  exists (cur f). unfold Lines.add_comment, Spec.own, flags. rewrite F3, F4, <- F2.
  destruct (l_comment T V D l); cbn; rewrite ?B; auto 10.
Qed.

Lemma closed_no_marker : forall ls (s s' : st) c, good s -> closed s = Some c -> run_upto ls s = Ok s' -> no_marker ls.
Proof.
  induction ls as [|l r IH]; intros s s' c G Hc; cbn [Basics.run_upto].
  - intros _. constructor.
  - intros E. apply bind_inv in E. destruct E as (s1 & E1 & E).
    destruct (is_marker l) eqn:M.
    + destruct (marker_line _ _ _ G M E1) as (H & _). congruence.
    + constructor; [exact M|].
      eapply (IH (next_line l s1) s' c); [exact (step_line_good T V D W read_dep emit _ _ _ G E1)| |exact E].
      change (closed (next_line l s1)) with (closed s1). destruct (line_step l [] _ _ G M E1) as (_ & K0 & _). congruence.
Qed.

Lemma split_marker_spec : forall ls rq rest, split_marker T V D ls = (rq, rest) ->
  no_marker rq /\ match rest with
                  | None => ls = rq
                  | Some (ml, rs) => ls = rq ++ ml :: rs /\ is_marker ml = true
                  end.
Proof.
  induction ls as [|l r IH]; intros rq rest; cbn.
  - intros E; injection E as <- <-. split; [constructor|reflexivity].
  - destruct (is_marker l) eqn:M.
    + intros E; injection E as <- <-. split; [constructor|]. split; [reflexivity|exact M].
    + destruct (split_marker T V D r) as [a b]. intros E; injection E as <- <-.
      destruct (IH _ _ eq_refl) as [H1 H2]. split; [constructor; assumption|].
      destruct b as [[ml rs]|]; [destruct H2 as [-> H3]; auto|rewrite H2; reflexivity].
Qed.

Lemma close_spec : forall c k, close T V c = Some k ->
  k_fields T V k = c_fields T V c /\ k_consts T V k = c_consts T V c /\ k_doc T V k = c_doc T V c /\ k_union T V k = c_union T V c
  /\ exists mo, c_mode T V c = Some mo /\ k_extent T V k = match mo with MSealed => None | MDelimited z => Some z end.
Proof.
  intros c k. unfold close. destruct (c_mode T V c) as [mo|]; [|discriminate].
  destruct (c_union T V c && _); [discriminate|]. intros E; inversion E; cbn. repeat split. exists mo. auto.
Qed.

Lemma finish_inv : forall (s : st) m w', Lines.finish T V W s = Ok (m, w') ->
  m_deprecated T V m = deprecated s
  /\ match closed s with
     | None => close T V (flushed s) = Some (m_req T V m) /\ m_resp T V m = None
     | Some c => close T V c = Some (m_req T V m) /\ exists k, m_resp T V m = Some k /\ close T V (flushed s) = Some k
     end.
Proof.
  intros s m w' E. unfold Lines.finish in E. apply bind_inv in E. destruct E as (f & Ef & E).
  destruct (flush_frame _ _ Ef) as (_ & _ & _ & Cl & De & _). rewrite <- (flush_cur _ _ Ef), <- Cl, <- De.
  unfold Lines.finalize in E. destruct (closed f) as [c|].
  - destruct (close T V c), (close T V (cur f)); try discriminate; injection E as <- _; cbn; eauto.
  - destruct (close T V (cur f)); try discriminate; injection E as <- _; cbn; auto.
Qed.

Lemma section_mirrors : forall ls (s s' : st) hdr k, good s -> no_marker ls -> run_upto ls s = Ok s' ->
  header s = true -> cur s = schema0 T V -> comment s = mkdoc hdr ->
  forall c, ceq c (flushed s') -> flags c = flags (cur s') -> close T V c = Some k ->
  mirrors T V D (hdr ++ lead ls) ls k.
Proof.
  intros ls s s' hdr k G M E Hh Hc Hb c Ce Fl Ek.
  destruct (section_run _ _ _ G M E) as (_ & C & (_ & F1 & F2 & _)).
  destruct (close_spec _ _ Ek) as (K1 & K2 & K3 & K4 & mo & K5 & K6).
  destruct (ext_content (attrs_of ls) (carry s ls)) as (X1 & X2 & X3).
  destruct Ce as (Ce1 & Ce2 & Ce3). destruct C as (C1 & C2 & C3).
  assert (Hcarry : carry s ls = set_doc T V (mkdoc (hdr ++ lead ls)) (schema0 T V)).
  { unfold carry, with_doc. destruct s as [b h p cl cu d ln w]. cbn in Hh, Hc, Hb. subst. unfold flushed. cbn.
    unfold Spec.mkdoc at 2. rewrite mkdoc_from_app. reflexivity. }
  rewrite Hcarry in X1, X2, X3. cbn in X1, X2, X3.
  unfold flags in Fl. inversion Fl as [[Fm Fu]].
  rewrite Hc in F1, F2. cbn in F1, F2.
  unfold mirrors. repeat split.
  - congruence.
  - congruence.
  - congruence.
  - congruence.
  - exists mo. split; [|exact K6]. rewrite <- F2, <- Fm, K5. reflexivity.
Qed.

(* C03_mirror *)
Theorem mirror : forall ls w m w', Lines.run T V D W read_dep emit ls w = Ok (m, w') ->
  m_deprecated T V m = has_dir T V D KDeprecated ls
  /\ match split_marker T V D ls with
     | (rq, None) => mirrors T V D (lead rq) rq (m_req T V m) /\ m_resp T V m = None
     | (rq, Some (ml, rs)) => mirrors T V D (lead rq) rq (m_req T V m)
                              /\ exists k, m_resp T V m = Some k /\ mirrors T V D (own ml ++ lead rs) rs k /\ no_marker rs
     end.
Proof.
  intros ls w m w' E. rewrite run_finish in E. apply bind_inv in E. destruct E as (sN & EU & EF).
  destruct (finish_inv _ _ _ EF) as (Hd & Hc). rewrite Hd.
  pose proof (good_init T V W w) as G0.
  destruct (split_marker T V D ls) as [rq rest] eqn:Esp.
  destruct (split_marker_spec _ _ _ Esp) as (Mrq & Hrest).
  destruct rest as [[ml rs]|].
  - (* service *)
    destruct Hrest as (-> & Mml). rewrite (run_upto_app T V D W read_dep emit) in EU.
    apply bind_inv in EU. destruct EU as (sa & Ea & EU). cbn [Basics.run_upto] in EU.
    apply bind_inv in EU. destruct EU as (sb & Eb & EU).
    destruct (section_run _ _ _ G0 Mrq Ea) as (Ga & _ & (_ & _ & _ & Da)).
    destruct (marker_line _ _ _ Ga Mml Eb) as (_ & Gb & c & Hc1 & Hc2 & Hc3 & Hb1 & Hb2 & Hb4 & Hb5).
    pose proof (closed_no_marker rs (next_line ml sb) sN c Gb Hc1 EU) as Mrs.
    destruct (section_run rs (next_line ml sb) _ Gb Mrs EU) as (_ & _ & (Clb & _ & _ & Db)).
    change (closed (next_line ml sb)) with (closed sb) in Clb. change (deprecated (next_line ml sb)) with (deprecated sb) in Db.
    rewrite Clb, Hc1 in Hc. destruct Hc as (Hq & k & Hk & Hks).
    split.
    + rewrite Db, Hb5, Da. change (ml :: rs) with ([ml] ++ rs). rewrite !has_dir_app. cbn [orb init Lines.deprecated].
      replace (has_dir T V D KDeprecated [ml]) with false; [reflexivity|].
      unfold Spec.has_dir, Spec.dir_of, Spec.is_marker in *. cbn [existsb].
      destruct (l_stmt T V D ml) as [[? [| |]]|]; try discriminate; reflexivity.
    + split; [exact (section_mirrors rq _ _ [] _ G0 Mrq Ea eq_refl eq_refl eq_refl c Hc2 Hc3 Hq)|].
      exists k. split; [exact Hk|]. split; [|exact Mrs].
      exact (section_mirrors rs (next_line ml sb) sN (own ml) k Gb Mrs EU Hb2 Hb1 Hb4 _ (ceq_refl _) (flags_flushed _) Hks).
  - (* message *)
    subst rq. destruct (section_run _ _ _ G0 Mrq EU) as (_ & _ & (Cl & _ & _ & Dd)).
    rewrite Cl in Hc. cbn [Lines.closed init] in Hc. destruct Hc as (Hq & Hn).
    split; [exact Dd|]. split; [|exact Hn].
    exact (section_mirrors ls _ sN [] _ G0 Mrq EU eq_refl eq_refl eq_refl _ (ceq_refl _) (flags_flushed _) Hq).
Qed.

(* each attribute statement exactly once, in source order *)
Lemma attrs_of_once : forall ls, map fst (attrs_of ls) = stmt_attrs T V D ls.
Proof. induction ls as [|l r IH]; cbn; [reflexivity|]. destruct (attr_of l); cbn; congruence. Qed.

Lemma filter_map_fst : forall (f : attr T V -> bool) (ads : list (attr T V * text)),
  map fst (filter (fun ad => f (fst ad)) ads) = filter f (map fst ads).
Proof. induction ads as [|ad ads IH]; cbn; [reflexivity|]. destruct (f (fst ad)); cbn; congruence. Qed.

Theorem mirrors_once : forall hdr ls k, mirrors T V D hdr ls k ->
  map fst (k_fields T V k) = filter (fieldlike T V) (stmt_attrs T V D ls)
  /\ map fst (k_consts T V k) = filter (fun a => negb (fieldlike T V a)) (stmt_attrs T V D ls).
Proof.
  intros hdr ls k (H1 & H2 & _). rewrite H1, H2. unfold Spec.is_field, Spec.is_const.
  rewrite (filter_map_fst (fieldlike T V)), (filter_map_fst (fun a => negb (fieldlike T V a))), attrs_of_once. auto.
Qed.

End Mirror.
