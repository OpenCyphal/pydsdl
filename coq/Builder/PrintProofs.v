(* Builder/PrintProofs.v - C17, deliveries: outside the F3 pattern (a @print inside a definition that is referenced by
   another one) every directive of every target is delivered exactly once, in order, with its own path and line. *)
From Coq Require Import ZArith List Bool.
From PV Require Import Builder.Lines Builder.Basics Builder.Reader Builder.ReaderProofs.
Import ListNotations.
Open Scope Z_scope.

Section Reads.
Variables T V D : Type.
Notation line := (line T V D).

(* d is read by some statement of ls *)
Definition reads_of (ls : list line) (d : D) : Prop :=
  exists l x, In l ls /\ l_stmt T V D l = Some x /\ In (PRead d) (s_pre T V D x).

Lemma events_reads : forall ls n d, In (Reads d) (events T V D n ls) -> reads_of ls d.
Proof.
  induction ls as [|l r IH]; intros n d; cbn; [contradiction|]. rewrite in_app_iff. intros [H|H].
  - unfold line_events in H. destruct (l_stmt T V D l) as [x|] eqn:Es; [|contradiction].
    apply in_app_iff in H. destruct H as [H|H].
    + apply in_flat_map in H. destruct H as ([| | |d'] & Hp & Hd); try contradiction.
      destruct Hd as [[= ->]|[]]. exists l, x. auto using in_eq.
    + destruct (s_act T V D x) as [|[] ? ?|]; try contradiction. destruct H as [H|[]]. discriminate.
  - destruct (IH _ _ H) as (l' & x & Hin & Hs). exists l', x. auto using in_cons.
Qed.

End Reads.

Section Deliveries.
Variables T V : Type.
Notation events := (events T V Z).
Variable dep : Z -> world -> world * option eloc.
Variable bound : text.
Notation replay := (replay Z world dep (deliver bound)).

Definition emitted (evs : list (event Z)) : list delivery :=
  flat_map (fun ev => match ev with Emits n t => [(bound, n, t)] | Reads _ => [] end) evs.

(* the directives of a text as the handler bound to path bound delivers them *)
Definition deliveries_as (ls : list (line T V Z)) : list delivery := map (fun ns => (bound, fst ns, snd ns)) (print_dirs T V 1 ls).

Lemma emitted_app : forall p q, emitted (p ++ q) = emitted p ++ emitted q.
Proof. intros. apply flat_map_app. Qed.

Lemma emitted_pre : forall ps, emitted (flat_map (pre_event Z) ps) = [].
Proof. induction ps as [|[| | |d] ps IH]; [reflexivity|exact IH..]. Qed.

Lemma emitted_events : forall ls n, emitted (events n ls) = map (fun ns => (bound, fst ns, snd ns)) (print_dirs T V n ls).
Proof.
  induction ls as [|l r IH]; intros n; [reflexivity|].
  cbn [ReaderProofs.events print_dirs]. rewrite emitted_app, map_app, IH. f_equal.
  unfold line_events, own_print. destruct (l_stmt T V Z l) as [[pre act]|]; [|reflexivity]. cbn [s_pre s_act].
  rewrite emitted_app, emitted_pre. destruct act as [|[] ? ?|]; reflexivity.
Qed.

Lemma replay_prints : forall evs w, (forall d w0, In (Reads d) evs -> prints (fst (dep d w0)) = prints w0) ->
  prints (replay evs w) = prints w ++ emitted evs.
Proof.
  induction evs as [|ev evs IH]; intros w Hd; [symmetry; apply app_nil_r|].
  rewrite replay_cons, IH by (intros d w0 H; apply Hd; right; exact H).
  destruct ev as [d|n t]; cbn; [rewrite Hd by (left; reflexivity); reflexivity|apply app_assoc_reverse].
Qed.

(* when the dependencies deliver nothing, a run delivers the directives of the text, in order, each once with its
   physical line - or, when it fails, an initial part of them *)
Theorem run_prints : forall ls, (forall d w0, reads_of T V Z ls d -> prints (fst (dep d w0)) = prints w0) ->
  forall w, sat (run T V Z world dep (deliver bound) ls w) (fun mw => prints (snd mw) = prints w ++ deliveries_as ls)
              (fun _ w' => exists p q, deliveries_as ls = p ++ q /\ prints w' = prints w ++ p).
Proof.
  intros ls Hd w. unfold deliveries_as. rewrite <- emitted_events.
  assert (R : forall p q, events 1 ls = p ++ q -> prints (replay p w) = prints w ++ emitted p).
  { intros p q E. apply replay_prints. intros d w0 H. apply Hd, (events_reads _ _ _ _ 1). rewrite E. apply in_or_app. left. exact H. }
  apply (sat_mono (traced_all (fun p w' => prints w' = prints w ++ emitted p) (run_traced T V Z world dep (deliver bound) ls w) R)); [auto|].
  intros e w' (p & q & E & H). exists (emitted p), (emitted q). rewrite E. split; [apply emitted_app|exact H].
Qed.

End Deliveries.

Section LeafTarget.
Variables T V : Type.
Notation file := (file T V).

(* C17_print_once_here, partial: a definition without dependencies that is read as a target gets each of its directives
   delivered exactly once, in order, with its own path and physical line *)
Theorem leaf_target_prints : forall fuel (fs : list file) lk t f w w',
  find_file T V fs t = Some f -> f_syntax T V f = None -> f_lines T V f <> [] -> Forall (no_reads T V Z) (f_lines T V f) ->
  memz t (pool w) = false ->
  read_targets T V (S fuel) fs lk [t] w = (w', None) ->
  prints w' = prints w ++ deliveries_as T V (f_path T V f) (f_lines T V f).
Proof.
  intros fuel fs lk t f w w' Ef Es _ NR Hp. cbn [Reader.read_targets]. rewrite Hp, read_obj_unfold, Ef, Es.
  assert (Hd : forall d w0, reads_of T V Z (f_lines T V f) d ->
            prints (fst (depf T V fuel fs (f_path T V f) (removez t lk) d w0)) = prints w0).
  { intros d w0 (l & x & Hl & Hx & Hr).
    rewrite Forall_forall in NR. specialize (NR l Hl x Hx). rewrite Forall_forall in NR. destruct (NR _ Hr). }
  pose proof (run_prints T V _ (f_path T V f) _ Hd w) as H.
  destruct (run T V Z world _ _ (f_lines T V f) w) as [[m w1]|e0 w1]; [|discriminate].
  intros [= <-]. exact H.
Qed.

End LeafTarget.

Section ReaderPrints.
Variables T V : Type.
Notation file := (file T V).
Notation read_obj := (read_obj T V).
Notation find_file := (find_file T V).
Variable fs : list file.

(* some definition of the namespace refers to d *)
Definition referenced (d : Z) : Prop := exists f, In f fs /\ reads_of T V Z (f_lines T V f) d.
Definition print_free (f : file) : Prop := print_dirs T V 1 (f_lines T V f) = [].
(* the complement of the F3 pattern: no definition that contains a @print is referred to *)
Hypothesis deps_print_free : forall d f, referenced d -> find_file fs d = Some f -> print_free f.

Definition own_deliveries (f : file) : list delivery :=
  map (fun ns => (f_path T V f, fst ns, snd ns)) (print_dirs T V 1 (f_lines T V f)).

(* bookkeeping that a read may do: the pool is untouched, only referenced definitions become wanted *)
Definition book (w0 w : world) : Prop :=
  pool w = pool w0 /\ forall j, In j (wanted w) -> In j (wanted w0) \/ referenced j.

Lemma book_refl : forall w, book w w.
Proof. intros w. split; auto. Qed.
Lemma book_trans : forall a b c, book a b -> book b c -> book a c.
Proof. intros a b c [P1 W1] [P2 W2]. split; [congruence|]. intros j Hj. destruct (W2 j Hj) as [H|H]; auto. Qed.

Lemma book_add_wanted : forall d w, referenced d -> book w (add_wanted d w).
Proof.
  intros d w R. unfold add_wanted. destruct (memz d (pool w) || memz d (wanted w)); [apply book_refl|].
  split; [reflexivity|]. cbn. intros j [->|H]; auto.
Qed.

Notation depf := (depf T V).
(* the directives of file i as the handler bound to path bound delivers them; the path that read_targets binds for target t *)
Definition deliveries_of (bound : text) (i : Z) : list delivery :=
  match find_file fs i with Some f => deliveries_as T V bound (f_lines T V f) | None => [] end.
Definition bound_of (t : Z) : text := match find_file fs t with Some f => f_path T V f | None => [] end.

Definition target_deliveries (t : Z) : list delivery :=
  match find_file fs t with Some f => own_deliveries f | None => [] end.

Lemma target_deliveries_of : forall t, target_deliveries t = deliveries_of (bound_of t) t.
Proof. intros t. unfold target_deliveries, deliveries_of, bound_of. destruct (find_file fs t); reflexivity. Qed.

Lemma referenced_quiet : forall bound d, referenced d -> deliveries_of bound d = [].
Proof.
  intros bound d R. unfold deliveries_of. destruct (find_file fs d) as [f|] eqn:E; [|reflexivity].
  unfold deliveries_as. rewrite (deps_print_free d f R E). reflexivity.
Qed.

(* what one read does to the deliveries: when it succeeds it has appended the file's own directives, tagged with the
   bound path; a print-free file delivers nothing - given that the definitions it refers to are print-free *)
Definition read_spec (fuel : nat) : Prop := forall bound lk i w w1 r, read_obj fuel fs bound lk i w = (w1, r) ->
  book w w1 /\ (deliveries_of bound i = [] -> prints w1 = prints w) /\ (r = None -> prints w1 = prints w ++ deliveries_of bound i).

(* hence the closure that reads a referenced definition delivers nothing and does only bookkeeping *)
Lemma depf_quiet : forall fuel bound lk d w0, read_spec fuel -> referenced d ->
  prints (fst (depf fuel fs bound lk d w0)) = prints w0 /\ book w0 (fst (depf fuel fs bound lk d w0)).
Proof.
  intros fuel bound lk d w0 IH Rd. unfold ReaderProofs.depf. destruct (memz d lk); [|split; [reflexivity|apply book_refl]].
  pose proof (book_add_wanted d w0 Rd) as B1.
  assert (P1 : prints (add_wanted d w0) = prints w0) by (unfold add_wanted; destruct (_ || _); reflexivity).
  destruct (memz d (cached (add_wanted d w0))); [auto|].
  destruct (read_obj fuel fs bound lk d (add_wanted d w0)) as [w2 r2] eqn:Ed.
  destruct (IH _ _ _ _ _ _ Ed) as (B2 & Hp & _).
  assert (P2 : prints w2 = prints w0).
  { rewrite Hp; [exact P1|]. apply referenced_quiet, Rd. }
  destruct r2; exact (conj P2 (book_trans _ _ _ B1 B2)).
Qed.

Lemma read_obj_prints : forall fuel, read_spec fuel.
Proof.
  assert (Stop : forall bound i w (e : eloc),
            book w w /\ (deliveries_of bound i = [] -> prints w = prints w) /\ (Some e = None -> prints w = prints w ++ deliveries_of bound i)).
  { intros. split; [apply book_refl|]. split; [reflexivity|discriminate]. }
  induction fuel as [|fuel IH]; intros bound lk i w w1 r E; [injection E as <- <-; apply Stop|].
  rewrite read_obj_unfold in E. destruct (find_file fs i) as [f|] eqn:Ef; [|injection E as <- <-; apply Stop].
  destruct (find_file_In T V _ _ _ Ef) as [Hin _].
  destruct (f_syntax T V f) as [n|]; [injection E as <- <-; apply Stop|].
  assert (Hdep : forall d w0, reads_of T V Z (f_lines T V f) d ->
            prints (fst (depf fuel fs bound (removez i lk) d w0)) = prints w0 /\ book w0 (fst (depf fuel fs bound (removez i lk) d w0))).
  { intros d w0 Hr. apply depf_quiet; [exact IH|]. exists f. auto. }
  pose proof (run_prints T V _ bound (f_lines T V f) (fun d w0 H => proj1 (Hdep d w0 H)) w) as Hp.
  pose proof (run_inv T V Z world _ (deliver bound) (book w) (f_lines T V f)
               (fun d w0 H Hq => book_trans _ _ _ Hq (proj2 (Hdep d w0 (events_reads T V Z _ _ _ H)))) (fun _ _ _ Hq => Hq) w (book_refl w)) as Hb.
  unfold deliveries_of. rewrite Ef.
  destruct (run T V Z world _ (deliver bound) (f_lines T V f) w) as [[m w']|e w']; injection E as <- <-; (split; [exact Hb|]); cbn in Hp.
  - split; [intros H; rewrite Hp, H; apply app_nil_r|intros _; exact Hp].
  - split; [|discriminate]. destruct Hp as (p & q & E & ->). intros H. rewrite H in E.
    destruct p; [apply app_nil_r|discriminate].
Qed.

(* every definition bound in the pool is an earlier target or is referred to by some definition *)
Definition pool_ok (w : world) (done : list Z) : Prop :=
  wanted w = [] /\ forall j, In j (pool w) -> In j done \/ referenced j.

Lemma read_targets_prints : forall fuel lk ts w done w',
  pool_ok w done -> NoDup ts -> (forall t, In t ts -> ~ In t done) ->
  read_targets T V (S fuel) fs lk ts w = (w', None) ->
  prints w' = prints w ++ flat_map target_deliveries ts.
Proof.
  intros fuel lk. induction ts as [|t r IH]; intros w done w' [Hw Hp] ND Hd.
  - cbn. intros [= <-]. symmetry. apply app_nil_r.
  - inversion ND as [|? ? Nt Nr]; subst.
    assert (Hd' : forall t', In t' r -> ~ In t' (t :: done)).
    { intros t' Ht' [->|H]; [contradiction|]. apply (Hd t'); [right; exact Ht'|exact H]. }
    cbn [Reader.read_targets flat_map]. destruct (memz t (pool w)) eqn:Em.
    + (* skipped: its lookup twin was read as a dependency, so it is referenced, hence print-free *)
      intros E. apply (memz_In) in Em. destruct (Hp t Em) as [H|H]; [exfalso; apply (Hd t); [left; reflexivity|exact H]|].
      rewrite target_deliveries_of, (referenced_quiet _ t H). apply (IH w done w' (conj Hw Hp) Nr); [|exact E].
      intros t' Ht'. apply Hd. right. exact Ht'.
    + fold (bound_of t). set (bound := bound_of t).
      destruct (Reader.read_obj T V (S fuel) fs bound lk t w) as [w1 [e|]] eqn:Eo; [discriminate|].
      destruct (read_obj_prints _ _ _ _ _ _ _ Eo) as ([Bp Bw] & _ & Hq).
      intros E.
      assert (Pk : pool_ok (settle t w1) (t :: done)).
      { split; [reflexivity|]. cbn. intros j [->|Hj]; [left; left; reflexivity|].
        apply in_app_or in Hj. destruct Hj as [Hj|Hj].
        - destruct (Bw j Hj) as [H|H]; [rewrite Hw in H; destruct H|right; exact H].
        - rewrite Bp in Hj. destruct (Hp j Hj) as [H|H]; [left; right; exact H|right; exact H]. }
      rewrite (IH (settle t w1) (t :: done) w' Pk Nr Hd' E). cbn [prints settle].
      rewrite (Hq eq_refl), <- app_assoc, target_deliveries_of. reflexivity.
Qed.

(* C17_print_once_here outside the F3 pattern: after a successful read_namespace the handler has received exactly the
   directives of the targets, target by target in reading order, each once, with its own path and physical line *)
Theorem prints_outside_f3 : forall lk ts ps, NoDup ts ->
  read_ns T V fs lk ts = (ps, None) -> ps = flat_map target_deliveries ts.
Proof.
  intros lk ts ps ND. unfold read_ns.
  destruct (read_targets T V (S (length fs)) fs lk ts world0) as [w r] eqn:E. intros [= <- ->].
  rewrite (read_targets_prints (length fs) lk ts world0 [] w); [reflexivity| |exact ND| |exact E].
  - split; [reflexivity|]. intros j [].
  - intros t _ [].
Qed.

End ReaderPrints.
