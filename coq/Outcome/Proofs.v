(* C13: nothing but InvalidOperandError / DSDLSyntaxError leaves the arithmetic and string-literal handlers, and
   what the exception funnel turns each exception into. *)
From Coq Require Import ZArith List.
From PV Require Import Expr.Values Expr.Syntax Expr.Literals Expr.Sem Expr.Eval Outcome.Model.
Import ListNotations.

(* the raw operation on rationals raises nothing but ZeroDivisionError and, on the float path, OverflowError *)
Lemma raw_arith_exc : forall fl o p q y,
  is_arith o = true -> raw_arith fl o p q = RExc y -> y = XZeroDivision \/ y = XOverflow.
Proof.
  intros fl o p q y Ha. destruct o; try discriminate Ha; cbn [raw_arith]; try discriminate.
  - destruct (q_is_zero q); intros [= <-]; auto.
  - destruct (q_is_zero q); intros [= <-]; auto.
  - destruct (is_int q); [destruct (py_pow_int p (qnum q))|destruct (fl p q)]; intros [= <-]; auto.
Qed.

(* with the current handlers nothing but InvalidOperandError leaves _generic_arithmetic, whatever the float path does *)
Lemma arith_only_invalid : forall fl o p q x,
  is_arith o = true -> generic_arithmetic fl HCurrent o p q = RExc x -> x = XInvalid.
Proof.
  intros fl o p q x Ha. unfold generic_arithmetic.
  destruct (raw_arith fl o p q) as [v| |y] eqn:R; [discriminate|intros [= <-]; reflexivity|].
  destruct (raw_arith_exc fl o p q y Ha R) as [-> | ->]; intros [= <-]; reflexivity.
Qed.

Lemma arith_never_complex : forall fl o p q, generic_arithmetic fl HCurrent o p q <> RComplexVal.
Proof.
  intros fl o p q H. unfold generic_arithmetic in H.
  destruct (raw_arith fl o p q) as [v| |y]; try discriminate. destruct y; discriminate.
Qed.

(* the evaluation model of C04 (Expr/Eval.v) classifies exactly these behaviours *)
Lemma arith_agrees : forall fl o p q, is_arith o = true ->
  match meth_rat o p (VRat q) with
  | DOk v => exists x, generic_arithmetic fl HCurrent o p q = RVal x /\ v = qnorm x
  | DInvalid => generic_arithmetic fl HCurrent o p q = RExc XInvalid
  | DUnspec => (exists x, generic_arithmetic fl HCurrent o p q = RVal x) \/ generic_arithmetic fl HCurrent o p q = RExc XInvalid
  | DUndef => False
  end.
Proof.
  intros fl o p q Ha. destruct o; try discriminate Ha; cbn [meth_rat rat_arith].
  - eexists; split; reflexivity.
  - eexists; split; reflexivity.
  - eexists; split; reflexivity.
  - unfold generic_arithmetic, raw_arith. destruct (q_is_zero q); [reflexivity|eexists; split; reflexivity].
  - unfold generic_arithmetic, raw_arith. destruct (q_is_zero q); [reflexivity|eexists; split; reflexivity].
  - unfold generic_arithmetic, raw_arith. destruct (is_int q).
    + destruct (py_pow_int p (qnum q)); [eexists; split; reflexivity|reflexivity].
    + destruct (fl p q); [left; eexists; reflexivity|right; reflexivity|right; reflexivity|right; reflexivity].
Qed.

(* regression statement for F4: without the handlers added by the repair a complex result / an overflow leaves
   _generic_arithmetic as a foreign exception, which the funnel turns into InternalError *)
Lemma before_F4_leaks :
  (forall fl p q, is_int q = false -> fl p q = FComplex -> generic_arithmetic fl HBeforeF4 BPow p q = RExc XValueError)
  /\ (forall fl p q, is_int q = false -> fl p q = FOverflow -> generic_arithmetic fl HBeforeF4 BPow p q = RExc XOverflow)
  /\ surfaced SVisit XValueError = (OInternal, true) /\ surfaced SVisit XOverflow = (OInternal, true).
Proof.
  repeat split.
  - intros fl p q Hq Hf. unfold generic_arithmetic, raw_arith. rewrite Hq, Hf. reflexivity.
  - intros fl p q Hq Hf. unfold generic_arithmetic, raw_arith. rewrite Hq, Hf. reflexivity.
Qed.

Lemma str_only_invalid : forall l st x, str_run_x HCurrent st l = Some x -> x = XInvalid.
Proof.
  induction l as [|c r IH]; intros st x H; cbn in H.
  - destruct st; try discriminate; inversion H; reflexivity.
  - destruct st as [| |n acc].
    + destruct (c =? 92)%Z; eapply IH; eassumption.
    + destruct (c =? 117)%Z; [eapply IH; eassumption|].
      destruct (c =? 85)%Z; [eapply IH; eassumption|].
      destruct (simple_escape c); [eapply IH; eassumption|inversion H; reflexivity].
    + destruct n as [|n]; [inversion H; reflexivity|].
      destruct (digit_val c); [|inversion H; reflexivity].
      destruct n as [|n].
      * destruct (py_chr (acc * 16 + z)); [inversion H; reflexivity|eapply IH; eassumption].
      * eapply IH; eassumption.
Qed.

Lemma py_chr_range : forall n, py_chr n = None <-> (n <=? 1114111)%Z = true.
Proof.
  intros n. unfold py_chr. destruct (n <=? 1114111)%Z; [tauto|].
  destruct (n <? 2147483648)%Z; split; discriminate.
Qed.

(* the literal decoder of C04 fails exactly when the implementation raises (and then it is a DSDLSyntaxError) *)
Lemma str_agrees : forall l st out, str_run_x HCurrent st l = None <-> str_run st l out <> None.
Proof.
  induction l as [|c r IH]; intros st out; cbn.
  - destruct st; split; try discriminate; try congruence.
  - destruct st as [| |n acc].
    + destruct (c =? 92)%Z; apply IH.
    + destruct (c =? 117)%Z; [apply IH|]. destruct (c =? 85)%Z; [apply IH|].
      destruct (simple_escape c); [apply IH|]. split; [discriminate|congruence].
    + destruct n as [|n]; [split; [discriminate|congruence]|].
      destruct (digit_val c); [|split; [discriminate|congruence]].
      destruct n as [|n]; [|apply IH].
      unfold py_chr. destruct (acc * 16 + z <=? 1114111)%Z; [apply IH|].
      destruct (acc * 16 + z <? 2147483648)%Z; split; try discriminate; congruence.
Qed.

(* regression statement for the chr() part of F4 *)
Lemma before_F4_chr_leaks :
  str_run_x HBeforeF4 SNorm [92; 85; 48; 48; 49; 49; 48; 48; 48; 48]%Z = Some XValueError
  /\ str_run_x HCurrent SNorm [92; 85; 48; 48; 49; 49; 48; 48; 48; 48]%Z = Some XInvalid.
Proof. split; vm_compute; reflexivity. Qed.

Definition handled_in_parser (x : pyexc) : bool :=
  match x with XParse | XRecursion | XUnicodeDecode => true | _ => false end.

(* The funnel in closed form: pydsdl's own errors pass, SystemExit passes raw, ParseError / RecursionError /
   UnicodeDecodeError become invalid definitions unless raised inside a visitor, anything else an InternalError. *)
Lemma surfaced_cases : forall st x,
  surfaced st x =
  if is_error x then (outcome_of x, true)
  else match x with
       | XSystemExit => (OOther, false)
       | _ => if handled_in_parser x then match st with SVisit => (OInternal, true) | _ => (OInvalid, true) end
              else (OInternal, true)
       end.
Proof. intros st x. destruct st, x; reflexivity. Qed.

(* The next four by cases on the exception (17), and on the stage (3) for the three that _parser.parse handles. *)
Lemma funnel_invalid : forall st x,
  fst (surfaced st x) = OInvalid <-> x = XInvalid \/ (handled_in_parser x = true /\ st <> SVisit).
Proof.
  intros st x. rewrite surfaced_cases.
  destruct x; cbn; try (split; [discriminate|intros [[=]|[[=] _]]]); [split; auto|..];
    destruct st; cbn; split; try discriminate; try (intros _; right; split; [reflexivity|discriminate]);
    try (intros _; reflexivity); intros [[=]|[_ H]]; destruct (H eq_refl).
Qed.

Lemma funnel_other : forall st x, fst (surfaced st x) = OOther <-> x = XSystemExit.
Proof.
  intros st x. rewrite surfaced_cases.
  destruct x; cbn; try (split; discriminate); try (split; reflexivity); destruct st; split; discriminate.
Qed.

Lemma funnel_internal : forall st x,
  fst (surfaced st x) = OInternal <-> x <> XInvalid /\ x <> XSystemExit /\ (handled_in_parser x = true -> st = SVisit).
Proof.
  intros st x. rewrite surfaced_cases.
  destruct x; cbn.
  all: try (split; [intros _; repeat split; discriminate|reflexivity]).
  all: try (split; [discriminate|intros (H & _); destruct (H eq_refl)]).
  all: try (split; [discriminate|intros (_ & H & _); destruct (H eq_refl)]).
  all: destruct st; cbn; split; try discriminate; try reflexivity;
    try (intros _; repeat split; discriminate || reflexivity); intros (_ & _ & H); discriminate (H eq_refl).
Qed.

(* InvalidDefinitionError and InternalError always carry the path of the definition being read *)
Lemma funnel_path : forall st x, fst (surfaced st x) <> OOther -> snd (surfaced st x) = true.
Proof.
  intros st x. rewrite surfaced_cases.
  destruct x; cbn; intros H; try reflexivity; [destruct st; reflexivity..|destruct (H eq_refl)].
Qed.

Lemma outside_parser : forall x,
  surfaced_outside_parser x =
  if is_error x then (outcome_of x, true)
  else match x with XUnicodeDecode => (OInvalid, true) | XSystemExit => (OOther, false) | _ => (OInternal, true) end.
Proof. intros x. destruct x; reflexivity. Qed.

Lemma predicted_classes : forall r acc o, In o (predicted r acc) -> o = OValue \/ o = OInvalid.
Proof.
  intros r acc o H. destruct r as [v| |]; cbn in H.
  - destruct (acc v); destruct H as [H|[]]; subst; auto.
  - destruct H as [H|[]]; subst; auto.
  - destruct H as [H|[H|[]]]; subst; auto.
Qed.

(* the rejection of an expression, wherever the statement stands, reaches the caller as InvalidDefinitionError with
   the path attached *)
Lemma rejection_surfaces : forall st, surfaced st XInvalid = (OInvalid, true).
Proof. destruct st; reflexivity. Qed.

(* failure modes of layers that are NOT modelled (the PEG engine's recursion, the file system, the symbolic layout
   layer): repaired ones surface as invalid definitions; what remains unhandled *)
Lemma repaired_leaks :
  surfaced SGrammar XRecursion = (OInvalid, true)
  /\ surfaced SFlush XRecursion = (OInvalid, true)
  /\ surfaced_outside_parser XUnicodeDecode = (OInvalid, true).
Proof. repeat split. Qed.

Lemma remaining_leaks :
  surfaced SVisit XRecursion = (OInternal, true)
  /\ surfaced_outside_parser XOSError = (OInternal, true)
  /\ surfaced_outside_parser XRecursion = (OInternal, true)
  /\ surfaced_outside_funnel XRecursion = (OOther, false)
  /\ surfaced SVisit XValueError = (OInternal, true)
  /\ surfaced_outside_parser XValueError = (OInternal, true)
  /\ surfaced SVisit XOverflow = (OInternal, true)
  /\ surfaced SVisit XMemoryOrSystem = (OInternal, true).
Proof. repeat split. Qed.
