(* Why Repetition.modulo may reduce its count: the residues modulo d of the sums of n elements of a list depend, from
   n = d - 1 on, on n mod d only (sumset_reduce).  [cwr_sums] enumerates the sums of n elements. *)
From Coq Require Import ZArith List Lia Permutation.
Import ListNotations.
Open Scope Z_scope.

Section Chain.
Variable d : Z.
Hypothesis dpos : 0 < d.
Variable S0 : list Z.                     (* residues, 0 among them *)
Hypothesis S0_range : forall s, In s S0 -> 0 <= s < d.
Hypothesis S0_zero : In 0 S0.

Definition chain_step (chainT : list Z) : list Z :=
  nodup Z.eq_dec (flat_map (fun t => map (fun s => (t + s) mod d) S0) chainT).

Fixpoint chainT (n : nat) : list Z := match n with O => [0] | S n' => chain_step (chainT n') end.

Lemma step_in T0 r : In r (chain_step T0) <-> exists t s, In t T0 /\ In s S0 /\ r = (t + s) mod d.
Proof.
  unfold chain_step. rewrite nodup_In, in_flat_map. split.
  - intros (t & Ht & Hr). apply in_map_iff in Hr. destruct Hr as (s & <- & Hs). eauto.
  - intros (t & s & Ht & Hs & ->). exists t. split; auto. apply in_map_iff. eauto.
Qed.

Lemma step_range T0 r : In r (chain_step T0) -> 0 <= r < d.
Proof. rewrite step_in. intros (t & s & _ & _ & ->). apply Z.mod_pos_bound; lia. Qed.

Lemma step_mono A B : incl A B -> incl (chain_step A) (chain_step B).
Proof. intros H r. rewrite !step_in. intros (t & s & Ht & Hs & ->). exists t, s. auto. Qed.

Lemma T_range n r : In r (chainT n) -> 0 <= r < d.
Proof. destruct n; simpl. - intros [<-|[]]; lia. - apply step_range. Qed.

Lemma T_nodup n : NoDup (chainT n).
Proof. destruct n; simpl. - constructor; [intros []|constructor]. - apply NoDup_nodup. Qed.

Lemma T_incr n : incl (chainT n) (chainT (S n)).
Proof.
  intros r Hr. simpl. apply step_in. exists r, 0. repeat split; auto.
  rewrite Z.add_0_r, Z.mod_small; auto. eapply T_range; eauto.
Qed.

Definition chain_stable_at n := incl (chainT (S n)) (chainT n).

Lemma stable_next n : chain_stable_at n -> chain_stable_at (S n).
Proof. unfold chain_stable_at. intros H. simpl. apply step_mono. exact H. Qed.

Lemma stable_from n m : chain_stable_at n -> (n <= m)%nat -> incl (chainT m) (chainT n) /\ incl (chainT n) (chainT m).
Proof.
  intros Hs Hle. induction Hle as [|m Hle IH].
  - split; apply incl_refl.
  - destruct IH as [IH1 IH2]. split.
    + assert (chain_stable_at m) as Hm.
      { clear IH1 IH2. induction Hle; auto using stable_next. }
      eapply incl_tran; [exact Hm | exact IH1].
    + eapply incl_tran; [exact IH2 | apply T_incr].
Qed.

Lemma incl_dec_Z (A B : list Z) : {incl A B} + {~ incl A B}.
Proof.
  induction A as [|a A IH].
  - left. intros x [].
  - destruct (in_dec Z.eq_dec a B) as [Ha|Ha].
    + destruct IH as [IH|IH].
      * left. intros x [<-|Hx]; auto.
      * right. intros H. apply IH. intros x Hx. apply H. right. exact Hx.
    + right. intros H. apply Ha. apply H. left. reflexivity.
Qed.

(* the idea of the file: the chain is an increasing sequence of duplicate-free sublists of [0, d); each step adds an
   element or the chain is stationary from there on, so after d - 1 steps it is stationary *)
Lemma grow_or_stable n : (n + 1 <= length (chainT n))%nat \/ chain_stable_at n.
Proof.
  induction n as [|n IH].
  - left. simpl. lia.
  - destruct IH as [IH|IH]; [|right; apply stable_next; exact IH].
    destruct (incl_dec_Z (chainT (S n)) (chainT n)) as [Hs|Hs].
    + right. apply stable_next. exact Hs.
    + left. assert (length (chainT n) < length (chainT (S n)))%nat; [|lia].
      destruct (Nat.lt_ge_cases (length (chainT n)) (length (chainT (S n)))) as [|Hge]; auto.
      exfalso. apply Hs. apply NoDup_length_incl; auto using T_nodup, T_incr.
Qed.

Definition range_d : list Z := map Z.of_nat (seq 0 (Z.to_nat d)).
Lemma range_d_in r : In r range_d <-> 0 <= r < d.
Proof.
  unfold range_d. rewrite in_map_iff. split.
  - intros (k & <- & Hk). apply in_seq in Hk. lia.
  - intros H. exists (Z.to_nat r). split; [lia|]. apply in_seq. lia.
Qed.
Lemma range_d_len : length range_d = Z.to_nat d.
Proof. unfold range_d. now rewrite map_length, seq_length. Qed.

Lemma stable_at_d : chain_stable_at (Z.to_nat d - 1).
Proof.
  set (n := (Z.to_nat d - 1)%nat).
  destruct (grow_or_stable n) as [Hlen|]; auto.
  unfold chain_stable_at. intros r Hr.
  assert (incl range_d (chainT n)) as Hall.
  { apply NoDup_length_incl.
    - apply T_nodup.
    - rewrite range_d_len. subst n. lia.
    - intros x Hx. apply range_d_in. eapply T_range; eauto. }
  apply Hall. apply range_d_in. eapply T_range; eauto.
Qed.

Theorem chain_stable n m : (Z.to_nat d - 1 <= n)%nat -> (Z.to_nat d - 1 <= m)%nat ->
  forall r, In r (chainT n) <-> In r (chainT m).
Proof.
  intros Hn Hm r.
  destruct (stable_from _ n stable_at_d Hn) as [A1 A2].
  destruct (stable_from _ m stable_at_d Hm) as [B1 B2].
  split; intros H; auto.
Qed.
End Chain.

Definition zsum := fold_right Z.add 0.

(* sums of multisets of size n drawn from l: mirrors {sum(el) for el in combinations_with_replacement(l, n)} *)
Fixpoint cwr_sums (l : list Z) (n : nat) : list Z :=
  match n with
  | O => [0]
  | S n' => (fix cwr_go (l : list Z) : list Z :=
               match l with
               | [] => []
               | x :: t => map (Z.add x) (cwr_sums l n') ++ cwr_go t
               end) l
  end.

Definition cwr_go (n' : nat) := fix cwr_go (l : list Z) : list Z :=
               match l with
               | [] => []
               | x :: t => map (Z.add x) (cwr_sums l n') ++ cwr_go t
               end.
Lemma cwr_S l n : cwr_sums l (S n) = cwr_go n l. Proof. reflexivity. Qed.
Lemma go_cons n x t : cwr_go n (x :: t) = map (Z.add x) (cwr_sums (x :: t) n) ++ cwr_go n t. Proof. reflexivity. Qed.

Lemma zsum_app a b : zsum (a ++ b) = zsum a + zsum b.
Proof. induction a; simpl; lia. Qed.
Lemma zsum_perm a b : Permutation a b -> zsum a = zsum b.
Proof. induction 1; simpl; lia. Qed.

(* nsum l n x : x is the sum of n elements of l; [cwr_sums] enumerates these sums, [ksum] is their image modulo d *)
Definition nsum (l : list Z) (n : nat) (x : Z) : Prop := exists m, length m = n /\ incl m l /\ zsum m = x.

Lemma nsum_0 l x : nsum l 0 x <-> x = 0.
Proof.
  split.
  - intros (m & Hl & _ & <-). destruct m; [reflexivity|discriminate].
  - intros ->. exists []. repeat split. intros y [].
Qed.

Lemma nsum_S l n x : nsum l (S n) x <-> exists s y, In s l /\ nsum l n y /\ x = s + y.
Proof.
  split.
  - intros ([|s m] & Hl & Hi & <-); [discriminate|]. exists s, (zsum m). repeat split.
    + apply Hi. left. reflexivity.
    + exists m. repeat split; [simpl in Hl; lia|]. intros y Hy. apply Hi. right. exact Hy.
  - intros (s & y & Hs & (m & Hl & Hi & <-) & ->). exists (s :: m). simpl. repeat split; [lia|].
    intros z [<-|Hz]; auto.
Qed.

Lemma nsum_incl l l' n x : incl l l' -> nsum l n x -> nsum l' n x.
Proof. intros H (m & Hl & Hi & E). exists m. repeat split; auto. intros y Hy. auto. Qed.

(* sums of at most K elements are sums of exactly K elements once 0 may be drawn *)
Lemma nsum_pad_zero l K x : (exists j, (j <= K)%nat /\ nsum l j x) <-> nsum (0 :: l) K x.
Proof.
  split.
  - intros (j & Hj & H). induction Hj as [|K _ IH].
    + revert H. apply nsum_incl. intros y Hy. right. exact Hy.
    + apply nsum_S. exists 0, x. repeat split; [left; reflexivity|exact IH].
  - revert x. induction K as [|K IH]; intros x H.
    + exists O. split; [lia|]. apply nsum_0. apply nsum_0 in H. exact H.
    + apply nsum_S in H. destruct H as (s & y & Hs & Hy & ->). destruct (IH y Hy) as (j & Hj & Hjy).
      destruct Hs as [<-|Hs]; [exists j; split; [lia|exact Hjy]|].
      exists (S j). split; [lia|]. apply nsum_S. exists s, y. auto.
Qed.

Lemma nsum_shift l s0 n x : nsum l n x <-> nsum (map (fun s => s - s0) l) n (x - Z.of_nat n * s0).
Proof.
  revert x. induction n as [|n IH]; intros x.
  - rewrite !nsum_0. lia.
  - rewrite !nsum_S. split.
    + intros (s & y & Hs & Hy & ->). exists (s - s0), (y - Z.of_nat n * s0).
      repeat split; [apply (in_map (fun s => s - s0)); exact Hs|apply IH; exact Hy|lia].
    + intros (s' & y' & Hs & Hy & E). apply in_map_iff in Hs. destruct Hs as (s & <- & Hs).
      exists s, (y' + Z.of_nat n * s0). repeat split; [exact Hs| |lia].
      apply IH. replace (y' + Z.of_nat n * s0 - Z.of_nat n * s0) with y' by lia. exact Hy.
Qed.

Lemma cwr_sound n : forall l s, In s (cwr_sums l n) -> exists m, length m = n /\ incl m l /\ zsum m = s.
Proof.
  induction n as [|n IH]; intros l s H.
  - simpl in H. destruct H as [<-|[]]. exists []. repeat split. intros x [].
  - rewrite cwr_S in H. induction l as [|x t IHl].
    + destruct H.
    + rewrite go_cons in H. apply in_app_or in H. destruct H as [H|H].
      * apply in_map_iff in H. destruct H as (s' & <- & Hs').
        destruct (IH _ _ Hs') as (m & Hlen & Hincl & Hsum).
        exists (x :: m). simpl. repeat split; try lia.
        intros y [<-|Hy]; [left; reflexivity | apply Hincl; exact Hy].
      * destruct (IHl H) as (m & Hlen & Hincl & Hsum).
        exists m. repeat split; auto. intros y Hy. right. apply Hincl. exact Hy.
Qed.

Lemma split_head x (m : list Z) :
  exists k rest, Permutation m (repeat x k ++ rest) /\ ~ In x rest.
Proof.
  induction m as [|y m (k & rest & Hp & Hn)].
  - exists O, []. split; [constructor | intros []].
  - destruct (Z.eq_dec y x) as [->|Hne].
    + exists (S k), rest. split; auto. simpl. constructor. exact Hp.
    + exists k, (y :: rest). split.
      * eapply perm_trans; [constructor; exact Hp|]. apply Permutation_middle.
      * intros [H|H]; [congruence | contradiction].
Qed.

Lemma cwr_complete n : forall l m, length m = n -> incl m l -> In (zsum m) (cwr_sums l n).
Proof.
  induction n as [|n IH]; intros l m Hlen Hincl.
  - destruct m; [left; reflexivity | discriminate].
  - rewrite cwr_S. revert m Hlen Hincl. induction l as [|x t IHl]; intros m Hlen Hincl.
    + destruct m; [discriminate|]. exfalso. apply (Hincl z). left. reflexivity.
    + rewrite go_cons. apply in_or_app.
      destruct (in_dec Z.eq_dec x m) as [Hx|Hx].
      * left. apply in_split in Hx. destruct Hx as (m1 & m2 & ->).
        assert (zsum (m1 ++ x :: m2) = x + zsum (m1 ++ m2)) as ->.
        { rewrite !zsum_app. simpl. lia. }
        apply in_map. apply IH.
        -- rewrite app_length in *. simpl in Hlen. lia.
        -- intros y Hy. apply Hincl. apply in_app_or in Hy. apply in_or_app. destruct Hy; [left|right; right]; auto.
      * right. apply IHl; auto. intros y Hy. destruct (Hincl y Hy) as [<-|]; [contradiction|auto].
Qed.

Theorem cwr_sums_spec l n s :
  In s (cwr_sums l n) <-> exists m, length m = n /\ incl m l /\ zsum m = s.
Proof.
  split; [apply cwr_sound|]. intros (m & Hl & Hi & <-). apply cwr_complete; auto.
Qed.

Definition ksum (d : Z) (S : list Z) (n : nat) (r : Z) : Prop :=
  exists m, length m = n /\ incl m S /\ r = zsum m mod d.

Lemma ksum_nsum d l n r : ksum d l n r <-> exists x, nsum l n x /\ r = x mod d.
Proof.
  split.
  - intros (m & Hl & Hi & ->). exists (zsum m). split; [exists m; auto|reflexivity].
  - intros (x & (m & Hl & Hi & <-) & ->). exists m. auto.
Qed.

Lemma ksum_0 d l r : ksum d l 0 r <-> r = 0 mod d.
Proof.
  rewrite ksum_nsum. split.
  - intros (x & H & ->). apply nsum_0 in H. subst. reflexivity.
  - intros ->. exists 0. split; [apply nsum_0|]; reflexivity.
Qed.

Lemma ksum_S d l n r : d <> 0 ->
  (ksum d l (S n) r <-> exists t s, ksum d l n t /\ In s l /\ r = (t + s) mod d).
Proof.
  intros Hd. rewrite ksum_nsum. split.
  - intros (x & H & ->). apply nsum_S in H. destruct H as (s & y & Hs & Hy & ->).
    exists (y mod d), s. repeat split; auto.
    + apply ksum_nsum. exists y. auto.
    + rewrite Z.add_mod_idemp_l by exact Hd. f_equal. lia.
  - intros (t & s & Ht & Hs & ->). apply ksum_nsum in Ht. destruct Ht as (y & Hy & ->).
    exists (s + y). split; [apply nsum_S; exists s, y; auto|].
    rewrite Z.add_mod_idemp_l by exact Hd. f_equal. lia.
Qed.

Section WithZero.
Variable d : Z. Hypothesis dpos : 0 < d.
Variable S0 : list Z. Hypothesis S0_zero : In 0 S0.

Lemma T_spec n r : In r (chainT d S0 n) <-> ksum d S0 n r.
Proof.
  revert r. induction n as [|n IH]; intros r.
  - rewrite ksum_0, Z.mod_0_l by lia. simpl. intuition.
  - cbn [chainT]. rewrite step_in, ksum_S by lia.
    split; intros (t & s & Ht & Hs); exists t, s; (split; [apply IH; exact Ht|exact Hs]).
Qed.

Lemma ksum_stable n m r : (Z.to_nat d - 1 <= n)%nat -> (Z.to_nat d - 1 <= m)%nat -> ksum d S0 n r -> ksum d S0 m r.
Proof. intros Hn Hm H. apply T_spec. apply (chain_stable d dpos S0 S0_zero n m Hn Hm). apply T_spec. exact H. Qed.
End WithZero.

(* a list without 0 is reduced to one with 0 by subtracting one of its elements from all *)
Section Shift.
Variable d : Z. Hypothesis dpos : 0 < d.
Variable S : list Z. Variable s0 : Z. Hypothesis s0_in : In s0 S.
Definition Ssh := map (fun s => s - s0) S.
Lemma Ssh_zero : In 0 Ssh.
Proof. unfold Ssh. apply in_map_iff. exists s0. split; [lia|auto]. Qed.

Lemma zsum_shift m : zsum (map (fun s => s - s0) m) = zsum m - Z.of_nat (length m) * s0.
Proof. induction m; simpl zsum; simpl length; [lia|]. rewrite IHm. lia. Qed.

Lemma ksum_shift n r : ksum d S n r <-> ksum d Ssh n ((r - Z.of_nat n * s0) mod d) /\ 0 <= r < d.
Proof.
  unfold Ssh. rewrite !ksum_nsum. split.
  - intros (x & Hx & ->). split; [|apply Z.mod_pos_bound; lia].
    exists (x - Z.of_nat n * s0). split; [apply nsum_shift; exact Hx|]. rewrite Zminus_mod_idemp_l. reflexivity.
  - intros ((y & Hy & E) & Hr). exists (y + Z.of_nat n * s0). split.
    + apply (nsum_shift S s0). replace (y + Z.of_nat n * s0 - Z.of_nat n * s0) with y by lia. exact Hy.
    + rewrite <- Z.add_mod_idemp_l, <- E, Z.add_mod_idemp_l by lia.
      replace (r - Z.of_nat n * s0 + Z.of_nat n * s0) with r by lia. symmetry. apply Z.mod_small. exact Hr.
Qed.

Theorem sumset_reduce n m r :
  (Z.to_nat d - 1 <= n)%nat -> (Z.to_nat d - 1 <= m)%nat -> Z.of_nat n mod d = Z.of_nat m mod d ->
  ksum d S n r -> ksum d S m r.
Proof.
  intros Hn Hm Hc H. apply ksum_shift in H. destruct H as [H Hr]. apply ksum_shift. split; auto.
  assert ((r - Z.of_nat n * s0) mod d = (r - Z.of_nat m * s0) mod d) as E.
  { rewrite Zminus_mod. rewrite (Zminus_mod r (Z.of_nat m * s0)).
    rewrite (Zmult_mod (Z.of_nat n)), (Zmult_mod (Z.of_nat m)), Hc. reflexivity. }
  rewrite <- E. exact (ksum_stable d dpos Ssh Ssh_zero n m _ Hn Hm H).
Qed.
End Shift.

(* the reduction used by the code *)
Lemma equiv_k_ok d k : 0 < d -> 0 <= k -> let k' := Z.min k (d + k mod d) in
  k' = k \/ (d <= k' /\ d <= k /\ k' mod d = k mod d).
Proof.
  intros Hd Hk k'. subst k'. destruct (Z.min_spec k (d + k mod d)) as [[H ->]|[H ->]]; [left; reflexivity|right].
  pose proof (Z.mod_pos_bound k d Hd). repeat split; try lia.
  rewrite Z.add_mod by lia. rewrite Z.mod_same by lia. rewrite Z.add_0_l. rewrite Z.mod_mod by lia. rewrite Z.mod_mod by lia. reflexivity.
Qed.
