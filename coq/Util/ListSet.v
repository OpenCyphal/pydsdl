(* Finite sets of integers as strictly increasing lists.  [norm] = sort + de-duplicate. *)
From Coq Require Import ZArith List Bool Lia Sorted.
Import ListNotations.
Open Scope Z_scope.

Fixpoint zins (x : Z) (l : list Z) : list Z :=
  match l with
  | [] => [x]
  | y :: t => if x <? y then x :: l else if x =? y then l else y :: zins x t
  end.

Definition norm (l : list Z) : list Z := fold_right zins [] l.

Definition zunion (a b : list Z) : list Z := fold_right zins b a.

Fixpoint list_eqb (a b : list Z) : bool :=
  match a, b with
  | [], [] => true
  | x :: a', y :: b' => (x =? y) && list_eqb a' b'
  | _, _ => false
  end.

Lemma list_eqb_eq a b : list_eqb a b = true <-> a = b.
Proof.
  revert b; induction a as [|x a IH]; intros [|y b]; simpl; split; intros H; try congruence; try discriminate.
  - apply andb_true_iff in H. destruct H as [H1 H2]. apply Z.eqb_eq in H1. apply IH in H2. congruence.
  - inversion H; subst. rewrite Z.eqb_refl. simpl. apply IH. reflexivity.
Qed.

Lemma zins_in x l y : In y (zins x l) <-> In y (x :: l).
Proof.
  induction l as [|z t IH]; simpl; [reflexivity|].
  destruct (x <? z); [reflexivity|]. destruct (x =? z) eqn:E.
  - apply Z.eqb_eq in E. subst. simpl. tauto.
  - simpl in *. rewrite IH. tauto.
Qed.

Definition ssorted (l : list Z) : Prop := StronglySorted Z.lt l.

Lemma zins_sorted x l : ssorted l -> ssorted (zins x l).
Proof.
  unfold ssorted. induction l as [|z t IH]; simpl; intros H.
  - repeat constructor.
  - inversion H as [|? ? Ht Hz]; subst.
    destruct (x <? z) eqn:E1.
    + apply Z.ltb_lt in E1. constructor; [exact H|]. constructor; [exact E1|].
      rewrite Forall_forall in *. intros y Hy. specialize (Hz y Hy). lia.
    + destruct (x =? z) eqn:E2; [exact H|].
      apply Z.ltb_ge in E1. apply Z.eqb_neq in E2.
      constructor; [apply IH; exact Ht|].
      rewrite Forall_forall in *. intros y Hy. apply zins_in in Hy. destruct Hy as [<-|Hy]; [lia|auto].
Qed.

Lemma norm_in l y : In y (norm l) <-> In y l.
Proof.
  induction l as [|x t IH]; simpl; [tauto|]. rewrite zins_in. simpl. rewrite IH. reflexivity.
Qed.

Lemma norm_sorted l : ssorted (norm l).
Proof. induction l as [|x t IH]; simpl; [constructor|apply zins_sorted; exact IH]. Qed.

Lemma zunion_in a b y : In y (zunion a b) <-> In y a \/ In y b.
Proof. induction a as [|x t IH]; simpl; [tauto|]. rewrite zins_in. simpl. rewrite IH. tauto. Qed.

Lemma zunion_sorted a b : ssorted b -> ssorted (zunion a b).
Proof. intros Hb. induction a as [|x t IH]; simpl; [exact Hb|apply zins_sorted; exact IH]. Qed.

Lemma ssorted_ext a b : ssorted a -> ssorted b -> (forall x, In x a <-> In x b) -> a = b.
Proof.
  unfold ssorted. revert b. induction a as [|x a IH]; intros [|y b] Ha Hb H.
  - reflexivity.
  - exfalso. apply (proj2 (H y)). left; reflexivity.
  - exfalso. apply (proj1 (H x)). left; reflexivity.
  - inversion Ha as [|? ? Ha' Hxa]; inversion Hb as [|? ? Hb' Hyb]; subst.
    rewrite Forall_forall in Hxa, Hyb.
    assert (x = y) as ->.
    { destruct (proj1 (H x) (or_introl eq_refl)) as [E|E]; [congruence|].
      destruct (proj2 (H y) (or_introl eq_refl)) as [E'|E']; [congruence|].
      specialize (Hxa _ E'). specialize (Hyb _ E). lia. }
    f_equal. apply IH; auto. intros z. split; intros Hz.
    + destruct (proj1 (H z) (or_intror Hz)) as [E|E]; [|exact E]. subst. specialize (Hxa _ Hz). lia.
    + destruct (proj2 (H z) (or_intror Hz)) as [E|E]; [|exact E]. subst. specialize (Hyb _ Hz). lia.
Qed.

Lemma norm_ext a b : (forall x, In x a <-> In x b) -> norm a = norm b.
Proof.
  intros H. apply ssorted_ext; try apply norm_sorted. intros x. rewrite !norm_in. apply H.
Qed.

Lemma ssorted_nodup l : ssorted l -> NoDup l.
Proof.
  unfold ssorted. induction 1 as [|x l Hs IH Hx]; constructor; auto.
  rewrite Forall_forall in Hx. intros Hin. specialize (Hx _ Hin). lia.
Qed.

Lemma norm_idem l : ssorted l -> norm l = l.
Proof. intros H. apply ssorted_ext; auto using norm_sorted. intros x. apply norm_in. Qed.
