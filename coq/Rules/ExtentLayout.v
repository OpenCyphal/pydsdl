(* The extent rule in terms of the set of serialized lengths: for a section that obeys the other rules (and with
   well-formed dependencies) the inner type is a well-formed layout type, its extent is the greatest possible length
   and a multiple of 8.  Uses the layout theorems of Layout/ProofsSpec.v (C02). *)
From Coq Require Import ZArith List Bool Lia.
From PV Require Import BLS.Den Layout.Types Layout.Proofs Layout.ProofsSpec Rules.NamesProofs Rules.Defn Rules.Accept Rules.Spec
  Rules.ProofsExtra.
Import ListNotations.
Open Scope Z_scope.

(* every dependency that can be nested has a well-formed layout *)
Definition env_wf (e : env) : Prop :=
  Forall (fun p => p_service p = false -> wft (p_ty p) = true) (e_deps e).

Lemma sty_wft e i s :
  env_wf e -> ScalarOK e i s -> is_service_ref e i s = false -> wft (sty e i s) = true.
Proof.
  intros He Hs Hsvc. destruct s; cbn [sty wft prim_ok ScalarOK] in *; try reflexivity.
  - apply between_spec, Hs.
  - apply between_spec, Hs.
  - rewrite !orb_true_iff, !Z.eqb_eq. tauto.
  - apply between_spec, Hs.
  - destruct Hs as [p Hp]. unfold is_service_ref, scalar_dep in Hsvc. rewrite Hp in *.
    apply resolve_spec in Hp. destruct Hp as [Hin _]. unfold env_wf in He. rewrite Forall_forall in He. auto.
Qed.

Lemma capacity_wft t n : wft t = true -> 1 <= n < 2 ^ 64 -> wft (TVar t n) = true.
Proof.
  intros Ht Hn. cbn [wft]. rewrite Ht. apply andb_true_iff. split; apply Z.leb_le; [apply Hn|apply bitlen_le; lia].
Qed.

Lemma tty_wft e i depr st t :
  env_wf e -> TypeOK e i t -> PlacementOK e i depr st t -> wft (tty e i t) = true.
Proof.
  intros He Ht Hp. destruct t as [s|s n|s n|s n]; cbn [tty TypeOK PlacementOK] in *.
  - apply sty_wft; tauto.
  - destruct Ht as (H1 & H2 & H3). cbn [wft]. rewrite (sty_wft e i s He H1 H2). apply Z.leb_le. exact H3.
  - destruct Ht as (H1 & H2 & H3). apply capacity_wft; [apply sty_wft; assumption|exact H3].
  - destruct Ht as (H1 & H2 & H3). apply capacity_wft; [apply sty_wft; assumption|exact H3].
Qed.

Lemma section_fields_wft e i depr st sec :
  env_wf e -> Forall (StmtOK e i) sec -> Forall (AttrPlacementOK e i depr st) (attrs_of sec) ->
  all_fields_ok wft (layout_fields e i (attrs_of sec)) = true.
Proof.
  intros He. unfold all_fields_ok. induction sec as [|s r IH]; intros HS HP; [reflexivity|].
  inversion HS as [|? ? Hs HSr]; subst. unfold attrs_of in *. cbn [flat_map] in *.
  apply Forall_app in HP. destruct HP as [HPs HPr].
  unfold layout_fields in *. rewrite flat_map_app, forallb_app. rewrite (IH HSr HPr), andb_true_r.
  destruct s as [t n|w|t n v|d v]; cbn in *; try reflexivity.
  - rewrite andb_true_r. inversion HPs; subst. destruct Hs as [Ht _]. eapply tty_wft; eauto.
  - rewrite andb_true_r. apply andb_true_iff. rewrite !Z.leb_le. lia.
Qed.

Theorem inner_wft e i depr sec :
  env_wf e -> Forall (StmtOK e i) sec ->
  Forall (AttrPlacementOK e i depr (negb (has_dir DUnion sec))) (attrs_of sec) ->
  (has_dir DUnion sec = true -> 2 <= Z.of_nat (length (layout_fields e i (attrs_of sec)))) ->
  Z.of_nat (length (layout_fields e i (attrs_of sec))) <= 2 ^ 64 ->     (* no text has that many variants *)
  wft (inner_ty e i (summary false sec)) = true.
Proof.
  intros He HS HP HU HB. unfold inner_ty. cbn [b_union b_attrs summary].
  pose proof (section_fields_wft e i depr _ sec He HS HP) as HF.
  destruct (has_dir DUnion sec); cbn [wft]; [|exact HF].
  rewrite HF. specialize (HU eq_refl). cbn [andb]. apply andb_true_iff. rewrite !Z.leb_le.
  split; [exact HU|apply bitlen_le; lia].
Qed.

(* the extent rule, restated over the set of lengths *)
Theorem extent_rule_lengths e i depr sec z :
  env_wf e -> Forall (StmtOK e i) sec ->
  Forall (AttrPlacementOK e i depr (negb (has_dir DUnion sec))) (attrs_of sec) ->
  (has_dir DUnion sec = true -> 2 <= Z.of_nat (length (layout_fields e i (attrs_of sec)))) ->
  Z.of_nat (length (layout_fields e i (attrs_of sec))) <= 2 ^ 64 ->
  let t := inner_ty e i (summary false sec) in
  ((z mod 8 = 0 /\ extent t <= z) <-> ((8 | z) /\ forall x, Den (bls t) x -> x <= z))
  /\ Den (bls t) (extent t) /\ (8 | extent t).
Proof.
  intros He HS HP HU HB t.
  assert (wft t = true) as W by (eapply inner_wft; eauto).
  assert (match t with TDelim _ _ => False | _ => True end) as Hnd
    by (unfold t, inner_ty; destruct (b_union (summary false sec)); exact I).
  destruct (sealed_extent t W Hnd) as [E [Hin Hmax]].
  assert (align t = 8) as A8 by (unfold t, inner_ty; destruct (b_union (summary false sec)); apply max_align_fields).
  split; [|split; [exact Hin|]].
  - rewrite <- Z.mod_divide by lia. split.
    + intros [H1 H2]. split; [exact H1|]. intros x Hx. specialize (Hmax x Hx). lia.
    + intros [H1 H2]. split; [exact H1|]. apply H2. exact Hin.
  - rewrite <- A8. apply align_divides; assumption.
Qed.

(* in a Valid definition every delimited section has an extent that is a multiple of 8 and bounds every length *)
Theorem valid_extent_bounds e i first depr k sec z :
  env_wf e -> SectionRules e i first depr k sec -> mode_of sec = MDelim z ->
  Z.of_nat (length (layout_fields e i (attrs_of sec))) <= 2 ^ 64 ->
  (8 | z) /\ forall x, Den (bls (inner_ty e i (summary false sec))) x -> x <= z.
Proof.
  intros He [S1 _ _ _ _ _ _ S8 S9 S10 _ _] Hm HB.
  destruct (extent_rule_lengths e i depr sec z He S1 S9 S8 HB) as [H _]. apply H. apply S10. exact Hm.
Qed.
