(* C05_iff: the replay of the code's checks accepts a definition iff the declarative rules hold.  In order: the checks
   made on one statement against the rules of Rules/Spec.v, one statement handler (what it requires of the builder's
   state and what it does to it), the handlers run over a section, the composite constructors, the definition. *)
From Coq Require Import ZArith List Bool Lia.
From PV Require Import Layout.Types Rules.NamesProofs Rules.Defn Rules.Accept Rules.Spec.
Import ListNotations.
Open Scope Z_scope.

Lemma guard_opt {A} (c : bool) (C : Prop) (o : option A) y :
  (c = true <-> C) -> ((if c then o else None) = Some y <-> C /\ o = Some y).
Proof. intros <-. destruct c; split; [auto|intros [_ H]; exact H|discriminate|intros [[=] _]]. Qed.

Lemma guard_spec {A} (c : bool) (C : Prop) (x y : A) :
  (c = true <-> C) -> ((if c then Some x else None) = Some y <-> C /\ y = x).
Proof.
  intros H. etransitivity; [apply guard_opt, H|]. split; intros [Hc E]; split; congruence.
Qed.

Lemma width_ok_spec w : width_ok w = true <-> 1 <= w <= 64.
Proof. apply between_spec. Qed.

Lemma is_sat_spec c : is_sat c = true <-> c = Sat.
Proof. destruct c; cbn; split; congruence. Qed.

Lemma scalar_ok_spec e i s : scalar_ok e i s = true <-> ScalarOK e i s.
Proof.
  destruct s; cbn [scalar_ok ScalarOK]; try tauto.
  - apply width_ok_spec.
  - apply andb_spec; [|apply is_sat_spec]. etransitivity; [apply andb_spec; [apply width_ok_spec|apply Z.leb_le]|lia].
  - etransitivity; [apply andb_spec; [apply width_ok_spec|apply orb_spec; [apply orb_spec|]; apply Z.eqb_eq]|lia].
  - apply width_ok_spec.
  - destruct (resolve e i comps major minor) as [p|]; split; [eauto|auto|discriminate|intros [p [=]]].
Qed.

(* the length prefix of an array of capacity n has pow2_ceil8 (bitlen n) bits: at most 64 iff n < 2^64 *)
Lemma prefix_ok_spec n : 1 <= n -> (prefix_ok n = true <-> n < 2 ^ 64).
Proof.
  intros Hn. unfold prefix_ok, pow2_ceil8, bitlen.
  destruct (n <=? 0) eqn:E; [apply Z.leb_le in E; lia|].
  rewrite Z.leb_le.
  set (m := Z.max 8 (Z.log2 n + 1)).
  assert (0 < m) by (unfold m; lia).
  change 64 with (2 ^ 6) at 1.
  rewrite <- Z.pow_le_mono_r_iff by (try lia; apply Z.log2_up_nonneg).
  rewrite <- Z.log2_up_le_pow2 by lia.
  rewrite (Z.log2_lt_pow2 n 64) by lia.
  unfold m. change (2 ^ 6) with 64. lia.
Qed.

Lemma capacity_ok_spec n : (1 <=? n) && prefix_ok n = true <-> 1 <= n < 2 ^ 64.
Proof. etransitivity; [apply andb_spec; [apply Z.leb_le|reflexivity]|]. pose proof (prefix_ok_spec n). tauto. Qed.

Lemma type_ok_spec e i t : type_ok e i t = true <-> TypeOK e i t.
Proof.
  destruct t as [s|s n|s n|s n]; cbn [type_ok TypeOK]; rewrite <- ?andb_assoc;
    [apply scalar_ok_spec|apply andb_spec; [apply scalar_ok_spec|apply andb_spec; [apply negb_true_iff|]]..].
  - apply Z.leb_le.
  - apply capacity_ok_spec.
  - apply capacity_ok_spec.
Qed.

Lemma attr_name_ok_spec t n : attr_name_ok t n = true <-> AttrNameOK t n.
Proof.
  unfold AttrNameOK, NameOK. rewrite <- name_ok_spec. destruct t as [[| | | | | |w|]| | |]; cbn [attr_name_ok].
  7: { split; [discriminate|]. intros [H _]. destruct (H w eq_refl). }
  all: split; [intros H; split; [intros w; discriminate|exact H]|tauto].
Qed.

Lemma xv_ok_spec v : xv_ok v = true <-> ExprOK (Some v).
Proof.
  unfold ExprOK. destruct v; cbn [xv_ok]; try (split; [intros _ n' d' [=]|reflexivity]).
  rewrite Z.ltb_lt. split; [intros H n' d' [= <- <-]; exact H|intros H; exact (H n d eq_refl)].
Qed.

Lemma oxv_ok_spec v : oxv_ok v = true <-> ExprOK v.
Proof. destruct v as [x|]; [apply xv_ok_spec|]. split; [intros _ n d [=]|reflexivity]. Qed.

(* Rational.as_native_integer succeeds with a quotient in range *)
Lemma exact_div n d lo hi :
  (0 <? d) && (n mod d =? 0) && (lo <=? n / d) && (n / d <=? hi) = true
  <-> 0 < d /\ exists z, n = z * d /\ lo <= z <= hi.
Proof.
  etransitivity; [apply andb_spec; [apply andb_spec; [apply andb_spec; [apply Z.ltb_lt|apply Z.eqb_eq]|apply Z.leb_le]|apply Z.leb_le]|].
  split.
  - intros [[[Hd Hm] H1] H2]. split; [exact Hd|]. exists (n / d). split; [|lia].
    pose proof (Z.div_mod n d ltac:(lia)). lia.
  - intros [Hd [z [-> Hz]]]. rewrite Z.mod_mul, Z.div_mul by lia. lia.
Qed.

Lemma int_const_ok_spec lo hi u8 v : int_const_ok lo hi u8 v = true <-> IntConst lo hi u8 v.
Proof.
  unfold int_const_ok, IntConst. destruct v as [b|n d|[|c [|c' r]]|].
  2: { etransitivity; [apply exact_div|]. split.
       - intros [Hd [z Hz]]. left. exists n, d, z. tauto.
       - intros [(n' & d' & z & [= <- <-] & Hd & Hz)|(c & [=] & _)]. eauto. }
  3: { etransitivity; [apply andb_spec; [apply andb_spec; [apply Z.leb_le|apply Z.ltb_lt]|reflexivity]|]. split.
       - intros [[H1 H2] H3]. right. exists c. auto.
       - intros [(n & d & z & [=] & _)|(c0 & [= <-] & H)]. tauto. }
  all: split; [discriminate|intros [(n & d & z & [=] & _)|(c0 & [=] & _)]].
Qed.

Lemma const_ok_spec t v : const_ok t v = true <-> ConstOK t v.
Proof.
  destruct t as [[| | |w c|w c|w c|w|]| | |]; cbn [const_ok ConstOK];
    try apply int_const_ok_spec; try (split; [discriminate|contradiction]).
  - destruct v; split; try discriminate; try (intros [b' [=]]); eauto.
  - destruct v as [b|n d| |]; try (split; [discriminate|intros (n' & d' & [=] & _)]).
    etransitivity; [apply andb_spec; [apply andb_spec; [apply Z.ltb_lt|apply Z.leb_le]|apply Z.leb_le]|]. split.
    + intros [[H1 H2] H3]. exists n, d. auto.
    + intros (n' & d' & [= <- <-] & H). tauto.
Qed.

(* _check_aggregation: no deprecated dependency in a type that is not deprecated itself *)
Lemma depr_clause a b : negb (a && negb b) = true <-> (a = true -> b = true).
Proof. destruct a, b; cbn; intuition congruence. Qed.

Lemma IsVoid_match s : IsVoid s <-> match s with XVoid _ => True | _ => False end.
Proof. unfold IsVoid. destruct s; split; try contradiction; try (intros [w' [=]]); eauto. Qed.

Lemma place_scalar_spec s st :
  (match s with XByte | XUtf8 => false | XVoid _ => st | _ => true end) = true
  <-> s <> XByte /\ s <> XUtf8 /\ (IsVoid s -> st = true).
Proof.
  rewrite IsVoid_match. destruct s; split; try discriminate; try (intros _; reflexivity);
    try (intros E; split; [discriminate|split; [discriminate|first [intros _; exact E|intros []]]]).
  - intros [H _]. destruct (H eq_refl).
  - intros (_ & H & _). destruct (H eq_refl).
  - intros (_ & _ & H). exact (H I).
Qed.
Lemma place_fix_spec s :
  (match s with XUtf8 | XVoid _ => false | _ => true end) = true <-> s <> XUtf8 /\ ~ IsVoid s.
Proof.
  rewrite IsVoid_match. destruct s; split; try discriminate; try (intros _; reflexivity);
    try (intros _; split; [discriminate|intros []]).
  - intros [H _]. destruct (H eq_refl).
  - intros [_ H]. destruct (H I).
Qed.
Lemma place_var_spec s :
  (match s with XVoid _ => false | _ => true end) = true <-> ~ IsVoid s.
Proof.
  rewrite IsVoid_match. destruct s; split; try discriminate; try (intros _; reflexivity); try (intros _ []).
  intros H. destruct (H I).
Qed.

Lemma agg_ok_spec e i depr st t : agg_ok e i depr st t = true <-> PlacementOK e i depr st t.
Proof.
  unfold agg_ok, PlacementOK. destruct t as [s|s n|s n|s n].
  - etransitivity; [apply andb_spec; [apply andb_spec; [apply place_scalar_spec|apply negb_true_iff]|apply depr_clause]|tauto].
  - etransitivity; [apply andb_spec; [apply place_fix_spec|apply depr_clause]|tauto].
  - apply andb_spec; [apply place_var_spec|apply depr_clause].
  - apply andb_spec; [apply place_var_spec|apply depr_clause].
Qed.

Lemma attr_agg_ok_spec e i depr st a : attr_agg_ok e i depr st a = true <-> AttrPlacementOK e i depr st a.
Proof. destruct a; cbn [attr_agg_ok AttrPlacementOK]; try apply agg_ok_spec. reflexivity. Qed.

Lemma dname_eqb_spec a b : dname_eqb a b = true <-> a = b.
Proof.
  split; [|intros ->; destruct b; reflexivity]. destruct a, b; cbn; intros H; (reflexivity || discriminate H).
Qed.

Lemma is_dirb_spec d s : is_dirb d s = true <-> IsDir d s.
Proof.
  unfold IsDir. destruct s; cbn [is_dirb]; try (split; [discriminate|intros [v' [=]]]).
  rewrite dname_eqb_spec. split; [intros ->; eauto|intros [v' [= <- _]]; reflexivity].
Qed.

Lemma is_modeb_spec s : is_modeb s = true <-> IsMode s.
Proof. unfold is_modeb, IsMode. rewrite orb_true_iff, !is_dirb_spec. reflexivity. Qed.

Lemma attr_of_nil s : attr_of s = [] <-> ~ IsAttr s.
Proof. destruct s; cbn; split; try discriminate; tauto. Qed.

Lemma mode_of_stmt_mode e i s : StmtOK e i s -> IsMode s -> mode_of_stmt s <> MNone.
Proof.
  intros Hs [[v ->]|[v ->]]; [discriminate|].
  destruct Hs as [_ (x & z & -> & Hz)]. cbn. rewrite Hz. discriminate.
Qed.

(* What a successful handler does to the state: the first mode directive sets the mode, flags are raised,
   attributes are appended. *)
Definition keep_mode (m new : smode) : smode := match m with MNone => new | _ => m end.
Definition upd (b : bstate) (s : stmt) : bstate :=
  mkB (b_deprecated b || is_dirb DDeprecated s)
      (keep_mode (b_mode b) (if is_modeb s then mode_of_stmt s else MNone))
      (b_union b || is_dirb DUnion s)
      (b_attrs b ++ attr_of s).

(* What a handler requires of the state. *)
Definition Cond (first : bool) (b : bstate) (s : stmt) : Prop :=
  match s with
  | SDir DSealed _ | SDir DExtent _ => b_mode b = MNone
  | SDir DUnion _ => b_union b = false /\ b_attrs b = []
  | SDir DDeprecated _ => first = true /\ b_deprecated b = false /\ b_attrs b = []
  | SDir _ _ => True
  | _ => is_delim (b_mode b) = false
  end.

(* The same by classes of statements, as the positional rules speak of them. *)
Lemma Cond_classes first b s :
  Cond first b s <->
  (IsMode s -> b_mode b = MNone)
  /\ (IsAttr s -> is_delim (b_mode b) = false)
  /\ (IsDir DUnion s -> b_union b = false /\ b_attrs b = [])
  /\ (IsDir DDeprecated s -> first = true /\ b_deprecated b = false /\ b_attrs b = []).
Proof.
  split.
  - intros H. split; [|split; [|split]].
    + intros [[v ->]|[v ->]]; exact H.
    + intros Ha. destruct s; [exact H..|destruct Ha].
    + intros [v ->]. exact H.
    + intros [v ->]. exact H.
  - intros (Hm & Ha & Hu & Hd). destruct s as [| | |d v]; [exact (Ha I)..|]. destruct d; try exact I.
    + apply Hu. eexists. reflexivity.
    + apply Hd. eexists. reflexivity.
    + apply Hm. left. eexists. reflexivity.
    + apply Hm. right. eexists. reflexivity.
Qed.

Lemma mode_keep m : keep_mode m MNone = m.
Proof. destruct m; reflexivity. Qed.

Lemma no_attrs_spec b : no_attrs b = true <-> b_attrs b = [].
Proof. unfold no_attrs. destruct (b_attrs b); split; congruence. Qed.

Lemma upd_attr b s a : attr_of s = [a] -> upd b s = add_attr b a.
Proof.
  unfold upd, add_attr. destruct s; cbn; intros [= <-]; rewrite !orb_false_r, mode_keep; reflexivity.
Qed.

Lemma upd_dir b d v :
  upd b (SDir d v) =
  match d with
  | DSealed | DExtent => set_mode b (keep_mode (b_mode b) (mode_of_stmt (SDir d v)))
  | DUnion => mkB (b_deprecated b) (b_mode b) true (b_attrs b)
  | DDeprecated => mkB true (b_mode b) (b_union b) (b_attrs b)
  | _ => b
  end.
Proof.
  unfold upd, set_mode. destruct b, d; cbn; rewrite ?orb_false_r, ?orb_true_r, ?mode_keep, app_nil_r; reflexivity.
Qed.

Lemma step_dir_spec e i first b d v b1 :
  step e i first b (SDir d v) = Some b1
  <-> (ExprOK v /\ DirOK d v) /\ Cond first b (SDir d v) /\ b1 = upd b (SDir d v).
Proof.
  cbn [step]. etransitivity; [apply guard_opt, oxv_ok_spec|]. etransitivity; [|symmetry; apply and_assoc].
  apply and_spec; [reflexivity|]. destruct d; rewrite upd_dir; cbn [DirOK Cond mode_of_stmt].
  - (* union *)
    destruct v; [split; [discriminate|intros [[=] _]]|].
    etransitivity; [apply guard_spec, andb_spec; [apply negb_true_iff|apply no_attrs_spec]|].
    split; [intros [H ->]|intros (_ & H & ->)]; auto.
  - (* deprecated *)
    destruct v; [split; [discriminate|intros [[=] _]]|]. rewrite <- andb_assoc.
    etransitivity; [apply guard_spec, andb_spec;
      [apply negb_true_iff|apply andb_spec; [reflexivity|apply no_attrs_spec]]|].
    split; [intros [(H1 & H2 & H3) ->]|intros (_ & (H2 & H1 & H3) & ->)]; auto.
  - (* sealed *)
    destruct v; [split; [destruct (b_mode b); discriminate|intros [[=] _]]|].
    destruct (b_mode b); [|split; [discriminate|intros (_ & [=] & _)]..].
    split; [intros [= <-]; auto|intros (_ & _ & ->); reflexivity].
  - (* extent *)
    destruct v as [x|]; [|split; [destruct (b_mode b); discriminate|intros [(x' & z & [=] & _) _]]].
    destruct (b_mode b); [|split; [discriminate|intros (_ & [=] & _)]..].
    cbn [keep_mode]. destruct (rat_int x) as [z|] eqn:Ez; split.
    + intros [= <-]. split; [eauto|auto].
    + intros (_ & _ & ->). reflexivity.
    + discriminate.
    + intros [(x' & z & [= <-] & Hz) _]. congruence.
  - (* assert *)
    destruct v as [[[|]| | |]|]; split; try discriminate; try solve [intros [[=] _]].
    + intros [= <-]. auto.
    + intros (_ & _ & ->). reflexivity.
  - (* print *)
    split; [intros [= <-]; auto|intros (_ & _ & ->); reflexivity].
  - split; [discriminate|intros [[] _]].
Qed.

Lemma step_spec e i first b s b1 :
  step e i first b s = Some b1 <-> StmtOK e i s /\ Cond first b s /\ b1 = upd b s.
Proof.
  destruct s as [t n|w|t n v|d v]; cbn [step StmtOK Cond].
  - rewrite (upd_attr b (SField t n) _ eq_refl).
    etransitivity; [apply guard_spec, andb_spec;
      [apply andb_spec; [apply type_ok_spec|apply negb_true_iff]|apply attr_name_ok_spec]|].
    split; [intros [[[Ht Hd] Hn] ->]|intros [[Ht Hn] [Hd ->]]]; auto.
  - rewrite (upd_attr b (SPad w) _ eq_refl).
    etransitivity; [apply guard_spec, andb_spec; [apply width_ok_spec|apply negb_true_iff]|].
    split; [intros [[Hw Hd] ->]|intros [Hw [Hd ->]]]; auto.
  - rewrite (upd_attr b (SConst t n v) _ eq_refl).
    etransitivity; [apply guard_spec, andb_spec; [apply andb_spec; [apply andb_spec;
      [apply andb_spec; [apply type_ok_spec|apply xv_ok_spec]|apply negb_true_iff]|apply attr_name_ok_spec]
      |apply const_ok_spec]|].
    split; [intros [[[[[Ht Hv] Hd] Hn] Hc] ->]|intros [(Ht & Hv & Hn & Hc) [Hd ->]]]; auto 6.
  - apply (step_dir_spec e i).
Qed.

(* The rules on the order of statements within a section, statement by statement valid: what the handlers of
   DataTypeBuilder check when they run in statement order from the initial state. *)
Definition Positional (e : env) (i : ident) (first : bool) (sec : list stmt) : Prop :=
  Forall (StmtOK e i) sec
  /\ (forall l1 m l2, sec = l1 ++ m :: l2 -> IsMode m -> Forall (fun s => ~ IsMode s) l1)
  /\ (forall l1 a l2, sec = l1 ++ a :: l2 -> IsAttr a -> Forall (fun s => ~ IsDir DExtent s) l1)
  /\ (forall l1 v l2, sec = l1 ++ SDir DUnion v :: l2 -> Forall (fun s => ~ IsAttr s /\ ~ IsDir DUnion s) l1)
  /\ (forall l1 v l2, sec = l1 ++ SDir DDeprecated v :: l2 ->
        first = true /\ Forall (fun s => ~ IsAttr s /\ ~ IsDir DDeprecated s) l1).

(* The same rules read at one statement: what precedes x allows x. *)
Definition Allows (first : bool) (l : list stmt) (x : stmt) : Prop :=
  (IsMode x -> Forall (fun s => ~ IsMode s) l)
  /\ (IsAttr x -> Forall (fun s => ~ IsDir DExtent s) l)
  /\ (IsDir DUnion x -> Forall (fun s => ~ IsAttr s /\ ~ IsDir DUnion s) l)
  /\ (IsDir DDeprecated x -> first = true /\ Forall (fun s => ~ IsAttr s /\ ~ IsDir DDeprecated s) l).

Lemma Positional_splits e i first sec :
  Positional e i first sec <->
  Forall (StmtOK e i) sec /\ (forall l1 x l2, sec = l1 ++ x :: l2 -> Allows first l1 x).
Proof.
  split.
  - intros (HF & Hm & Ha & Hu & Hd). split; [exact HF|]. intros l1 x l2 E. split; [|split; [|split]].
    + exact (Hm l1 x l2 E).
    + exact (Ha l1 x l2 E).
    + intros [v ->]. exact (Hu l1 v l2 E).
    + intros [v ->]. exact (Hd l1 v l2 E).
  - intros [HF H]. split; [exact HF|]. split; [|split; [|split]].
    + intros l1 m l2 E. apply (H l1 m l2 E).
    + intros l1 a l2 E. apply (H l1 a l2 E).
    + intros l1 v l2 E. apply (H l1 _ l2 E). eexists. reflexivity.
    + intros l1 v l2 E. apply (H l1 _ l2 E). eexists. reflexivity.
Qed.

Lemma splits_snoc {A} (R : list A -> A -> Prop) l y :
  (forall l1 x l2, l ++ [y] = l1 ++ x :: l2 -> R l1 x)
  <-> (forall l1 x l2, l = l1 ++ x :: l2 -> R l1 x) /\ R l y.
Proof.
  split.
  - intros H. split.
    + intros l1 x l2 ->. apply (H l1 x (l2 ++ [y])). rewrite <- app_assoc. reflexivity.
    + apply (H l y []). reflexivity.
  - intros [H Hy] l1 x l2 E. induction l2 as [|z l2 _] using rev_ind.
    + apply app_inj_tail in E. destruct E as [-> ->]. exact Hy.
    + rewrite app_comm_cons, app_assoc in E. apply app_inj_tail in E. destruct E as [-> _]. eapply H. reflexivity.
Qed.

Lemma Positional_nil e i first : Positional e i first [].
Proof. apply Positional_splits. split; [constructor|]. intros [|? ?] x l2 [=]. Qed.

Lemma Positional_snoc e i first l x :
  Positional e i first (l ++ [x]) <-> Positional e i first l /\ StmtOK e i x /\ Allows first l x.
Proof.
  rewrite !Positional_splits, splits_snoc, Forall_app, Forall_cons_iff, Forall_nil_iff. tauto.
Qed.

Lemma run_snoc e i first l x : forall b,
  run e i first b (l ++ [x]) = match run e i first b l with Some b1 => step e i first b1 x | None => None end.
Proof.
  induction l as [|s r IH]; intros b; cbn [run app].
  - destruct (step e i first b x); reflexivity.
  - destruct (step e i first b s); [apply IH|reflexivity].
Qed.

(* What the summary of a list of valid statements records about the list. *)
Lemma no_attr_no_dir d l :
  has_dir d l = false /\ attrs_of l = [] <-> Forall (fun s => ~ IsAttr s /\ ~ IsDir d s) l.
Proof.
  induction l as [|s r IH]; cbn [has_dir existsb attrs_of flat_map].
  - split; [constructor|auto].
  - fold (has_dir d r) (attrs_of r).
    rewrite Forall_cons_iff, <- IH, orb_false_iff, <- attr_of_nil, <- is_dirb_spec, not_true_iff_false.
    split; [intros [[H1 H2] H3]; apply app_eq_nil in H3; tauto|intros [[-> ->] [-> ->]]; auto].
Qed.

Lemma mode_of_none e i l : Forall (StmtOK e i) l -> (mode_of l = MNone <-> Forall (fun s => ~ IsMode s) l).
Proof.
  unfold mode_of. induction 1 as [|s r Hs _ IH]; cbn [find]; [split; [constructor|reflexivity]|].
  rewrite Forall_cons_iff, <- is_modeb_spec. destruct (is_modeb s) eqn:E.
  - apply is_modeb_spec in E. pose proof (mode_of_stmt_mode e i s Hs E). intuition congruence.
  - rewrite IH. intuition congruence.
Qed.

Lemma mode_of_first l1 m l2 :
  IsMode m -> Forall (fun s => ~ IsMode s) l1 -> mode_of (l1 ++ m :: l2) = mode_of_stmt m.
Proof.
  intros Hm H1. unfold mode_of. induction H1 as [|a l1 Ha _ IH]; cbn [app find].
  - apply is_modeb_spec in Hm. rewrite Hm. reflexivity.
  - rewrite <- is_modeb_spec in Ha. destruct (is_modeb a); [congruence|exact IH].
Qed.

(* Not an equivalence statement by statement: "@sealed, @extent" has a sealed summary; it is one for sections
   in which no mode directive precedes another. *)
Lemma mode_of_not_delim e i l :
  Forall (StmtOK e i) l ->
  (forall l1 m l2, l = l1 ++ m :: l2 -> IsMode m -> Forall (fun s => ~ IsMode s) l1) ->
  (is_delim (mode_of l) = false <-> Forall (fun s => ~ IsDir DExtent s) l).
Proof.
  intros HF Hm. rewrite Forall_forall in *. split.
  - intros H x Hx Hd. pose proof (HF x Hx) as Hs.
    apply in_split in Hx. destruct Hx as (k1 & k2 & ->).
    rewrite (mode_of_first k1 x k2 (or_intror Hd) (Hm k1 x k2 eq_refl (or_intror Hd))) in H.
    destruct Hd as [v ->]. destruct Hs as [_ (y & z & -> & Hz)]. cbn in H. rewrite Hz in H. discriminate.
  - intros H. unfold mode_of. destruct (find is_modeb l) as [s|] eqn:E; [|reflexivity].
    apply find_some in E. specialize (H s (proj1 E)).
    destruct s as [| | |d v]; try reflexivity. destruct d; try reflexivity.
    exfalso. apply H. eexists. reflexivity.
Qed.

Lemma mode_of_snoc e i l x :
  Forall (StmtOK e i) l -> keep_mode (mode_of l) (if is_modeb x then mode_of_stmt x else MNone) = mode_of (l ++ [x]).
Proof.
  unfold mode_of. induction 1 as [|s r Hs _ IH]; cbn [app find].
  - destruct (is_modeb x); reflexivity.
  - destruct (is_modeb s) eqn:E; [|exact IH].
    apply is_modeb_spec in E. pose proof (mode_of_stmt_mode e i s Hs E).
    destruct (mode_of_stmt s); [contradiction|reflexivity|reflexivity].
Qed.

Lemma summary_snoc e i depr0 l x : Forall (StmtOK e i) l -> upd (summary depr0 l) x = summary depr0 (l ++ [x]).
Proof.
  intros HF. unfold upd, summary, has_dir, attrs_of. cbn [b_deprecated b_mode b_union b_attrs].
  rewrite (mode_of_snoc e i l x HF), !existsb_app, flat_map_app. cbn [existsb flat_map].
  rewrite !orb_false_r, app_nil_r, orb_assoc. reflexivity.
Qed.

Lemma Cond_summary e i first depr0 l x :
  (first = true -> depr0 = false) -> Positional e i first l ->
  (Cond first (summary depr0 l) x <-> Allows first l x).
Proof.
  intros Hd (HF & Hm & _). etransitivity; [apply Cond_classes|]. cbn [summary b_deprecated b_mode b_union b_attrs].
  apply and_spec; [apply imp_iff_compat_l, (mode_of_none e i l HF)|].
  apply and_spec; [apply imp_iff_compat_l, (mode_of_not_delim e i l HF Hm)|].
  apply and_spec; apply imp_iff_compat_l; [apply no_attr_no_dir|].
  rewrite <- no_attr_no_dir. destruct first; [rewrite (Hd eq_refl)|]; cbn [orb]; intuition discriminate.
Qed.

(* depr0 is the deprecation flag left by the previous sections: a first section starts with false; a later
   section never accepts @deprecated, whatever the flag *)
Lemma run_init e i first depr0 sec b :
  (first = true -> depr0 = false) ->
  (run e i first (init_state depr0) sec = Some b <-> Positional e i first sec /\ b = summary depr0 sec).
Proof.
  intros Hd. revert b. induction sec as [|x l IH] using rev_ind; intros b.
  - unfold summary. cbn. rewrite orb_false_r. pose proof (Positional_nil e i first).
    split; [intros [= <-]; auto|intros [_ ->]; reflexivity].
  - rewrite run_snoc, Positional_snoc.
    destruct (run e i first (init_state depr0) l) as [b1|].
    + destruct (proj1 (IH b1) eq_refl) as [P ->].
      rewrite step_spec, (Cond_summary e i first depr0 l x Hd P), (summary_snoc e i depr0 l x (proj1 P)). tauto.
    + split; [discriminate|]. intros [[P _] _]. discriminate (proj2 (IH _) (conj P eq_refl)).
Qed.

Lemma match_run e i first depr0 sec (f : bstate -> bool) :
  (first = true -> depr0 = false) ->
  (match run e i first (init_state depr0) sec with Some b => f b | None => false end = true
   <-> Positional e i first sec /\ f (summary depr0 sec) = true).
Proof.
  intros Hd. pose proof (fun b => run_init e i first depr0 sec b Hd) as R.
  destruct (run e i first (init_state depr0) sec) as [b|].
  - destruct (proj1 (R b) eq_refl) as [P ->]. tauto.
  - split; [discriminate|]. intros [P _]. discriminate (proj2 (R _) (conj P eq_refl)).
Qed.

Lemma has_dir_split d l : has_dir d l = true <-> exists l1 v l2, l = l1 ++ SDir d v :: l2.
Proof.
  unfold has_dir. rewrite existsb_exists. split.
  - intros [s [Hin Hs]]. apply is_dirb_spec in Hs. destruct Hs as [v ->].
    apply in_split in Hin. destruct Hin as [l1 [l2 ->]]. eauto.
  - intros [l1 [v [l2 ->]]]. exists (SDir d v). split; [apply in_elt|]. apply is_dirb_spec. eexists. reflexivity.
Qed.

Lemma no_deprecated_later e i sec : Positional e i false sec -> has_dir DDeprecated sec = false.
Proof.
  intros (_ & _ & _ & _ & H). apply not_true_iff_false. intros E. apply has_dir_split in E.
  destruct E as (l1 & v & l2 & E). destruct (H l1 v l2 E) as [[=] _].
Qed.

Lemma nodupb_spec l : nodupb l = true <-> NoDup l.
Proof.
  induction l as [|x r IH]; cbn [nodupb].
  - split; [constructor|reflexivity].
  - rewrite NoDup_cons_iff. apply andb_spec; [|exact IH].
    rewrite negb_true_iff, <- not_true_iff_false, existsb_str_eqb. reflexivity.
Qed.

Lemma version_ok_spec i : version_ok i = true <-> VersionOK i.
Proof.
  unfold version_ok, VersionOK. rewrite <- (andb_assoc _ (0 <=? i_minor i)).
  etransitivity; [apply andb_spec; [apply andb_spec; apply between_spec|apply Z.ltb_lt]|lia].
Qed.

Lemma port_ok_spec lo hi p :
  match p with None => true | Some x => (lo <=? x) && (x <=? hi) end = true <-> PortIn lo hi p.
Proof.
  unfold PortIn. destruct p as [x|].
  - rewrite between_spec. split; [intros H y [= <-]; exact H|intros H; apply H; reflexivity].
  - split; [intros _ y [=]|reflexivity].
Qed.

Lemma mode_exists e i sec : Forall (StmtOK e i) sec -> (mode_of sec <> MNone <-> exists m, In m sec /\ IsMode m).
Proof.
  intros HF. unfold mode_of. destruct (find is_modeb sec) as [s|] eqn:E.
  - apply find_some in E. destruct E as [Hin Hm]. apply is_modeb_spec in Hm.
    rewrite Forall_forall in HF. split; [eauto|]. intros _. apply (mode_of_stmt_mode e i s); auto.
  - split; [congruence|]. intros [m [Hin Hm]]. apply is_modeb_spec in Hm.
    pose proof (find_none _ _ E m Hin). congruence.
Qed.

Lemma mode_ok_spec e i depr0 sec :
  Forall (StmtOK e i) sec ->
  (mode_ok e i (summary depr0 sec) = true <->
   (exists m, In m sec /\ IsMode m)
   /\ (forall z, mode_of sec = MDelim z -> z mod 8 = 0 /\ extent (inner_ty e i (summary false sec)) <= z)).
Proof.
  intros HF. rewrite <- (mode_exists e i sec HF). unfold mode_ok. cbn [b_mode summary].
  change (inner_ty e i (summary depr0 sec)) with (inner_ty e i (summary false sec)).
  destruct (mode_of sec) as [| |z].
  - split; [discriminate|]. intros [H _]. congruence.
  - split; [|reflexivity]. intros _. split; [discriminate|]. intros z [=].
  - rewrite andb_true_iff, Z.eqb_eq, Z.leb_le. split.
    + intros H. split; [discriminate|]. intros z' [= <-]. exact H.
    + intros [_ H]. apply H. reflexivity.
Qed.

Lemma composite_ok_spec e i depr0 depr k sec :
  Forall (StmtOK e i) sec ->
  (composite_ok e i depr k (summary depr0 sec) = true <->
   joined_length (composite_name i k) <= 255
   /\ Forall NameOK (composite_name i k)
   /\ VersionOK i
   /\ NoDup (attr_names (attrs_of sec))
   /\ match k with KMessage => PortIn 0 8191 (i_port i) | _ => True end
   /\ Forall (AttrPlacementOK e i depr (negb (has_dir DUnion sec))) (attrs_of sec)
   /\ (has_dir DUnion sec = true -> 2 <= Z.of_nat (length (layout_fields e i (attrs_of sec))))
   /\ (exists m, In m sec /\ IsMode m)
   /\ (forall z, mode_of sec = MDelim z -> z mod 8 = 0 /\ extent (inner_ty e i (summary false sec)) <= z)).
Proof.
  intros HF. unfold composite_ok. cbn [b_attrs b_union summary]. rewrite <- !andb_assoc.
  apply andb_spec; [apply Z.leb_le|].
  apply andb_spec; [apply forallb_Forall; exact name_ok_spec|].
  apply andb_spec; [apply version_ok_spec|].
  apply andb_spec; [apply nodupb_spec|].
  apply andb_spec; [destruct k; [apply port_ok_spec|tauto|tauto]|].
  apply andb_spec; [apply forallb_Forall, attr_agg_ok_spec|].
  apply andb_spec; [|apply (mode_ok_spec e i depr0 sec HF)].
  destruct (has_dir DUnion sec); [rewrite Z.leb_le; tauto|split; [discriminate|reflexivity]].
Qed.

Lemma regulated_ok_spec e i svc : regulated_ok e i svc = true <-> RegulatedOK e i svc.
Proof.
  unfold regulated_ok, RegulatedOK. destruct (e_allow_unregulated e); cbn [orb].
  - split; [discriminate|reflexivity].
  - destruct svc, (is_standard_root (i_root i)); cbv zeta; rewrite port_ok_spec; tauto.
Qed.

(* Positional holds five fields of SectionRules, composite_ok the other seven, the version and the port *)
Lemma section_iff e i first depr0 depr k sec :
  Positional e i first sec /\ composite_ok e i depr k (summary depr0 sec) = true
  <-> SectionRules e i first depr k sec /\ VersionOK i
      /\ match k with KMessage => PortIn 0 8191 (i_port i) | _ => True end.
Proof.
  split.
  - intros [(Hs & Hm & Ha & Hu & Hd) Hc]. apply (composite_ok_spec e i depr0 depr k sec Hs) in Hc.
    destruct Hc as (Hl & Hc & Hv & Hn & Hp & Hg & Hr & He & Hx).
    split; [|split; [exact Hv|exact Hp]].
    exact (Build_SectionRules e i first depr k sec Hs He Hm Ha Hu Hd Hn Hr Hg Hx Hl Hc).
  - intros [[Hs He Hm Ha Hu Hd Hn Hr Hg Hx Hl Hc] [Hv Hp]].
    split; [exact (conj Hs (conj Hm (conj Ha (conj Hu Hd))))|].
    apply (composite_ok_spec e i depr0 depr k sec Hs).
    exact (conj Hl (conj Hc (conj Hv (conj Hn (conj Hp (conj Hg (conj Hr (conj He Hx)))))))).
Qed.

Theorem accept_iff_valid e d : accept e d = true <-> Valid e d.
Proof.
  unfold accept, Valid. set (i := d_id d). set (depr := has_dir DDeprecated (d_first d)).
  etransitivity; [apply (match_run e i true false (d_first d)); reflexivity|].
  change (b_deprecated (summary false (d_first d))) with depr.
  pose proof (section_iff e i true false depr) as S1.
  destruct (d_more d) as [|sec2 [|sec3 more]].
  - (* message *)
    etransitivity; [apply and_spec; [reflexivity|apply andb_spec; [reflexivity|apply regulated_ok_spec]]|].
    specialize (S1 KMessage (d_first d)). split.
    + intros (P1 & C1 & Hr). destruct (proj1 S1 (conj P1 C1)) as (R1 & Hv & Hp). auto.
    + intros (Hv & R1 & Hp & Hr). destruct (proj2 S1 (conj R1 (conj Hv Hp))) as [P1 C1]. auto.
  - (* service: a response section that obeys the positional rules has no @deprecated *)
    etransitivity; [apply and_spec; [reflexivity|apply (match_run e i false depr sec2); discriminate]|].
    etransitivity; [apply and_spec; [reflexivity|apply and_ctx; intros P2; cbn [b_deprecated summary];
      rewrite (no_deprecated_later e i sec2 P2), orb_false_r; unfold service_port_ok;
      apply andb_spec; [apply andb_spec; [apply andb_spec; reflexivity|apply port_ok_spec]|apply regulated_ok_spec]]|].
    specialize (S1 KRequest (d_first d)). pose proof (section_iff e i false depr depr KResponse sec2) as S2. split.
    + intros (P1 & P2 & [[[C1 C2] Hp] Hr]).
      destruct (proj1 S1 (conj P1 C1)) as (R1 & Hv & _). destruct (proj1 S2 (conj P2 C2)) as (R2 & _). auto 6.
    + intros (Hv & R1 & R2 & Hp & Hr).
      destruct (proj2 S1 (conj R1 (conj Hv I))) as [P1 C1]. destruct (proj2 S2 (conj R2 (conj Hv I))) as [P2 C2]. auto 8.
  - split; [intros [_ [=]]|tauto].
Qed.
