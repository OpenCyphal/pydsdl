(* Corollaries of the rules at every numeric boundary, and the extent rule in terms of the set of lengths. *)
From Coq Require Import ZArith List Bool Lia.
From PV Require Import BLS.Model BLS.Den BLS.Proofs Layout.Types Rules.Defn Rules.Accept Rules.Spec Rules.Proofs.
Import ListNotations.
Open Scope Z_scope.

Lemma b_uint e i w c : scalar_ok e i (XUInt w c) = true <-> 1 <= w <= 64.
Proof. apply scalar_ok_spec. Qed.
Lemma b_sint e i w c : scalar_ok e i (XSInt w c) = true <-> 2 <= w <= 64 /\ c = Sat.
Proof. apply scalar_ok_spec. Qed.
Lemma b_float e i w c : scalar_ok e i (XFloat w c) = true <-> w = 16 \/ w = 32 \/ w = 64.
Proof. apply scalar_ok_spec. Qed.
Lemma b_void e i w : scalar_ok e i (XVoid w) = true <-> 1 <= w <= 64.
Proof. apply scalar_ok_spec. Qed.

Lemma b_fix e i s n : scalar_ok e i s = true -> is_service_ref e i s = false -> (type_ok e i (TxFix s n) = true <-> 1 <= n).
Proof. intros H1 H2. rewrite type_ok_spec. cbn [TypeOK]. rewrite <- scalar_ok_spec. tauto. Qed.
Lemma b_var_incl e i s n :
  scalar_ok e i s = true -> is_service_ref e i s = false -> (type_ok e i (TxVarI s n) = true <-> 1 <= n < 2 ^ 64).
Proof. intros H1 H2. rewrite type_ok_spec. cbn [TypeOK]. rewrite <- scalar_ok_spec. tauto. Qed.
Lemma b_var_excl e i s n :
  scalar_ok e i s = true -> is_service_ref e i s = false -> (type_ok e i (TxVarE s n) = true <-> 2 <= n <= 2 ^ 64).
Proof. intros H1 H2. rewrite type_ok_spec. cbn [TypeOK]. rewrite <- scalar_ok_spec. intuition lia. Qed.

Theorem type_boundaries e i :
  (forall c, scalar_ok e i (XUInt 0 c) = false /\ scalar_ok e i (XUInt 1 c) = true
             /\ scalar_ok e i (XUInt 64 c) = true /\ scalar_ok e i (XUInt 65 c) = false)
  /\ (scalar_ok e i (XSInt 1 Sat) = false /\ scalar_ok e i (XSInt 2 Sat) = true
      /\ scalar_ok e i (XSInt 64 Sat) = true /\ scalar_ok e i (XSInt 65 Sat) = false
      /\ forall w, scalar_ok e i (XSInt w Trunc) = false)
  /\ (forall w c, scalar_ok e i (XFloat w c) = true <-> w = 16 \/ w = 32 \/ w = 64)
  /\ (scalar_ok e i (XVoid 0) = false /\ scalar_ok e i (XVoid 1) = true
      /\ scalar_ok e i (XVoid 64) = true /\ scalar_ok e i (XVoid 65) = false)
  /\ (forall s, scalar_ok e i s = true -> is_service_ref e i s = false ->
        type_ok e i (TxFix s 0) = false /\ type_ok e i (TxFix s 1) = true
        /\ type_ok e i (TxVarI s 0) = false /\ type_ok e i (TxVarI s 1) = true
        /\ type_ok e i (TxVarE s 1) = false /\ type_ok e i (TxVarE s 2) = true
        /\ type_ok e i (TxVarI s (2 ^ 64 - 1)) = true /\ type_ok e i (TxVarI s (2 ^ 64)) = false).
Proof.
  split; [intros c; repeat split; reflexivity|].
  split; [repeat split; try reflexivity; intros w; cbn; destruct (width_ok w && (2 <=? w)); reflexivity|].
  split; [intros w c; apply b_float|].
  split; [repeat split; reflexivity|].
  intros s H H0.
  assert (forall n, type_ok e i (TxFix s n) = (1 <=? n)) as E1 by (intros n; cbn; rewrite H, H0; reflexivity).
  split; [rewrite E1; reflexivity|]. split; [rewrite E1; reflexivity|].
  split; [apply not_true_iff_false; rewrite b_var_incl by auto; lia|].
  split; [apply b_var_incl; auto; lia|].
  split; [apply not_true_iff_false; rewrite b_var_excl by auto; lia|].
  split; [apply b_var_excl; auto; lia|].
  split; [apply b_var_incl; auto; lia|].
  apply not_true_iff_false. rewrite b_var_incl by auto. lia.
Qed.

Theorem version_boundaries r ns s p :
  version_ok (mkId r ns s 0 0 p) = false /\ version_ok (mkId r ns s 0 1 p) = true
  /\ version_ok (mkId r ns s 1 0 p) = true /\ version_ok (mkId r ns s 255 255 p) = true
  /\ version_ok (mkId r ns s 256 0 p) = false /\ version_ok (mkId r ns s 0 256 p) = false
  /\ version_ok (mkId r ns s (-1) 1 p) = false.
Proof. repeat split; reflexivity. Qed.

Theorem port_boundaries :
  subject_port_ok (Some 0) = true /\ subject_port_ok (Some 8191) = true /\ subject_port_ok (Some 8192) = false
  /\ subject_port_ok (Some (-1)) = false
  /\ service_port_ok (Some 0) = true /\ service_port_ok (Some 511) = true /\ service_port_ok (Some 512) = false
  /\ subject_port_ok None = true /\ service_port_ok None = true.
Proof. repeat split; reflexivity. Qed.

Definition reg (allow : bool) (root : str) (p : Z) (service : bool) : bool :=
  regulated_ok (mkEnv [] allow) (mkId root [] [84] 1 0 (Some p)) service.

Theorem regulated_boundaries :
  (* vendor subjects 6144..7167 *)
  reg false [110;115] 6143 false = false /\ reg false [110;115] 6144 false = true
  /\ reg false [110;115] 7167 false = true /\ reg false [110;115] 7168 false = false
  (* standard subjects 7168..8191 *)
  /\ reg false w_uavcan 7167 false = false /\ reg false w_uavcan 7168 false = true
  /\ reg false w_cyphal 8191 false = true /\ reg false w_cyphal 8192 false = false
  (* vendor services 256..383 *)
  /\ reg false [110;115] 255 true = false /\ reg false [110;115] 256 true = true
  /\ reg false [110;115] 383 true = true /\ reg false [110;115] 384 true = false
  (* standard services 384..511 *)
  /\ reg false w_uavcan 383 true = false /\ reg false w_uavcan 384 true = true
  /\ reg false w_cyphal 511 true = true /\ reg false w_cyphal 512 true = false
  (* everything goes when unregulated identifiers are allowed *)
  /\ (forall root p service, reg true root p service = true).
Proof. repeat split; reflexivity. Qed.

(* "not smaller than the longest representation": extent(inner) is the maximum of the set of lengths *)
Lemma inner_extent e i b : extent (inner_ty e i b) = omax (bls (inner_ty e i b)).
Proof. unfold inner_ty. destruct (b_union b); reflexivity. Qed.

Theorem extent_longest e i b z :
  wf (bls (inner_ty e i b)) ->
  (extent (inner_ty e i b) <= z <-> forall x, Den (bls (inner_ty e i b)) x -> x <= z).
Proof.
  intros Hwf. rewrite inner_extent. destruct (omax_ok _ Hwf) as [Hin Hmax]. split.
  - intros H x Hx. specialize (Hmax x Hx). lia.
  - intros H. apply H. exact Hin.
Qed.

Theorem extent_boundaries e i dp un at_ z :
  let M := extent (inner_ty e i (mkB dp MNone un at_)) in
  M mod 8 = 0 ->
  (mode_ok e i (mkB dp (MDelim z) un at_) = true <-> z mod 8 = 0 /\ M <= z)
  /\ (z = M -> mode_ok e i (mkB dp (MDelim z) un at_) = true)
  /\ (z = M + 8 -> mode_ok e i (mkB dp (MDelim z) un at_) = true)
  /\ (z = M - 8 -> mode_ok e i (mkB dp (MDelim z) un at_) = false)
  /\ (M < z < M + 8 -> mode_ok e i (mkB dp (MDelim z) un at_) = false).
Proof.
  intros M HM.
  assert (mode_ok e i (mkB dp (MDelim z) un at_) = true <-> z mod 8 = 0 /\ M <= z) as H.
  { unfold mode_ok. cbn [b_mode]. rewrite andb_true_iff, Z.eqb_eq, Z.leb_le. reflexivity. }
  clearbody M.
  split; [exact H|]. repeat split.
  - intros ->. apply H. split; [exact HM|lia].
  - intros ->. apply H. split; [|lia]. rewrite <- Z.add_mod_idemp_l, HM by lia. reflexivity.
  - intros ->. apply not_true_iff_false. rewrite H. lia.
  - intros Hz. apply not_true_iff_false. rewrite H. intros [Hz8 _].
    assert ((z - M) mod 8 = 0) as E.
    { rewrite Zminus_mod, Hz8, HM. reflexivity. }
    rewrite Z.mod_small in E by lia. lia.
Qed.

(* the names of the two sections of a service, Name.Request / Name.Response, are 8 / 9 characters longer, and it is
   their length that the limit of 255 applies to *)
Lemma joined_length_app l c :
  l <> [] -> joined_length (l ++ [c]) = joined_length l + 1 + Z.of_nat (length c).
Proof.
  intros Hl. unfold joined_length. rewrite app_length, Nat2Z.inj_add. cbn [length].
  assert (forall l0 : list str, fold_right (fun c0 acc => Z.of_nat (length c0) + acc) 0 (l0 ++ [c])
          = fold_right (fun c0 acc => Z.of_nat (length c0) + acc) 0 l0 + Z.of_nat (length c)) as E.
  { induction l0 as [|x l0 IH]; cbn [fold_right app]; [lia|rewrite IH; lia]. }
  rewrite E. lia.
Qed.

Theorem name_length_service i :
  joined_length (composite_name i KRequest) = joined_length (full_name i) + 8
  /\ joined_length (composite_name i KResponse) = joined_length (full_name i) + 9.
Proof.
  unfold composite_name. rewrite !joined_length_app by (unfold full_name; destruct (full_ns i); discriminate).
  cbn. lia.
Qed.
