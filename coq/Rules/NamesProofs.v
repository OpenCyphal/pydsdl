(* name_ok is exactly "identifier syntax and not reserved", with the reserved set given extensionally. *)
From Coq Require Import ZArith List Bool Lia.
From PV Require Import Layout.Types Rules.Names Rules.NamesSpec.
Import ListNotations.
Open Scope Z_scope.

(* A boolean check reflects a rule when `check = true <-> Rule`; conjunctions are reflected part by part. *)
Lemma and_spec (A A' B B' : Prop) : (A <-> A') -> (B <-> B') -> (A /\ B <-> A' /\ B').
Proof. tauto. Qed.

Lemma and_ctx (A B C : Prop) : (A -> (B <-> C)) -> (A /\ B <-> A /\ C).
Proof. tauto. Qed.

Lemma andb_spec (a b : bool) (A B : Prop) : (a = true <-> A) -> (b = true <-> B) -> (a && b = true <-> A /\ B).
Proof. intros <- <-. apply andb_true_iff. Qed.

Lemma orb_spec (a b : bool) (A B : Prop) : (a = true <-> A) -> (b = true <-> B) -> (a || b = true <-> A \/ B).
Proof. intros <- <-. apply orb_true_iff. Qed.

Lemma between_spec a b c : (a <=? c) && (c <=? b) = true <-> a <= c <= b.
Proof. apply andb_spec; apply Z.leb_le. Qed.

Lemma forallb_Forall {A} (f : A -> bool) (P : A -> Prop) l :
  (forall x, f x = true <-> P x) -> (forallb f l = true <-> Forall P l).
Proof.
  intros H. rewrite forallb_forall, Forall_forall. split; intros H1 x Hx; apply H; auto.
Qed.

Lemma is_upper_spec c : is_upper c = true <-> IsUpper c.
Proof. apply between_spec. Qed.
Lemma is_lower_spec c : is_lower c = true <-> IsLower c.
Proof. apply between_spec. Qed.
Lemma is_digit_spec c : is_digit c = true <-> IsDigit c.
Proof. apply between_spec. Qed.
Lemma first_ok_spec c : first_ok c = true <-> IsFirst c.
Proof.
  etransitivity; [apply orb_spec; [apply orb_spec; [apply is_lower_spec|apply is_upper_spec]|apply Z.eqb_eq]|apply or_assoc].
Qed.
Lemma cont_ok_spec c : cont_ok c = true <-> IsCont c.
Proof. apply orb_spec; [apply first_ok_spec|apply is_digit_spec]. Qed.

Lemma all_digits_spec s : all_digits s = true <-> Digits s.
Proof. apply forallb_Forall, is_digit_spec. Qed.

Lemma str_eqb_spec a : forall b, str_eqb a b = true <-> a = b.
Proof.
  induction a as [|x a IH]; intros [|y b]; cbn; try (split; [discriminate|discriminate]); try tauto.
  rewrite andb_true_iff, Z.eqb_eq, IH. split; [intros [-> ->]; reflexivity|intros H; inversion H; auto].
Qed.

Lemma strip_prefix_spec p : forall s r, strip_prefix p s = Some r <-> s = p ++ r.
Proof.
  induction p as [|x p IH]; intros s r; cbn.
  - split; [intros H; inversion H; reflexivity|intros ->; reflexivity].
  - destruct s as [|y s]; [split; discriminate|].
    destruct (x =? y) eqn:E.
    + apply Z.eqb_eq in E; subst y. rewrite IH. split; [intros ->; reflexivity|intros H; inversion H; reflexivity].
    + apply Z.eqb_neq in E. split; [discriminate|intros H; inversion H; congruence].
Qed.

Lemma strip_prefix_none p s : strip_prefix p s = None -> forall r, s <> p ++ r.
Proof.
  intros H r Hs. apply strip_prefix_spec in Hs. congruence.
Qed.

Lemma span_digits_app a : forall c t, Digits a -> is_digit c = false -> span_digits (a ++ c :: t) = (a, c :: t).
Proof.
  induction a as [|x a IH]; intros c t Ha Hc; cbn.
  - rewrite Hc. reflexivity.
  - inversion Ha; subst. apply is_digit_spec in H1. rewrite H1. rewrite IH; auto.
Qed.

Lemma span_digits_spec s : forall d t, span_digits s = (d, t) -> s = d ++ t /\ Digits d.
Proof.
  induction s as [|c s IH]; intros d t; cbn.
  - intros H; inversion H; subst. split; [reflexivity|constructor].
  - destruct (is_digit c) eqn:E.
    + destruct (span_digits s) as [d' t'] eqn:Es. intros H; inversion H; subst.
      destruct (IH d' t eq_refl) as [-> Hd]. split; [reflexivity|].
      constructor; [apply is_digit_spec; exact E|exact Hd].
    + intros H; inversion H; subst. split; [reflexivity|constructor].
Qed.

Lemma pat_prefix_digits_spec p s : pat_prefix_digits p s = true <-> exists ds, Digits ds /\ s = p ++ ds.
Proof.
  unfold pat_prefix_digits. destruct (strip_prefix p s) as [r|] eqn:E.
  - apply strip_prefix_spec in E. rewrite all_digits_spec. split.
    + intros H. exists r. auto.
    + intros [ds [Hd Hs]]. subst s. apply app_inv_head in Hs. subst. exact Hd.
  - split; [discriminate|]. intros [ds [_ Hs]]. exfalso. exact (strip_prefix_none _ _ E _ Hs).
Qed.

Lemma pat_prefix_digit_spec p s : pat_prefix_digit p s = true <-> exists d, IsDigit d /\ s = p ++ [d].
Proof.
  unfold pat_prefix_digit. destruct (strip_prefix p s) as [r|] eqn:E.
  - apply strip_prefix_spec in E. subst s. split.
    + destruct r as [|d [|? ?]]; try discriminate. intros H. exists d. split; [apply is_digit_spec; exact H|reflexivity].
    + intros [d [Hd Hs]]. apply app_inv_head in Hs. subst r. apply is_digit_spec. exact Hd.
  - split; [discriminate|]. intros [d [_ Hs]]. exfalso. exact (strip_prefix_none _ _ E _ Hs).
Qed.

(* q\d+_\d+ *)
Definition QPat (s : str) : Prop :=
  exists a b, Digits a /\ a <> [] /\ Digits b /\ b <> [] /\ s = c_q :: a ++ us :: b.

Lemma pat_q_spec s : pat_q s = true <-> QPat s.
Proof.
  unfold pat_q, QPat. destruct s as [|c r].
  - split; [discriminate|]. intros (a & b & _ & _ & _ & _ & [=]).
  - split.
    + rewrite andb_true_iff, Z.eqb_eq. intros [-> H].
      destruct (span_digits r) as [d1 t] eqn:Es. apply span_digits_spec in Es. destruct Es as [-> Hd1].
      destruct d1 as [|x d1]; [discriminate|]. destruct t as [|u d2]; [discriminate|].
      apply andb_true_iff in H. destruct H as [Hu H]. apply Z.eqb_eq in Hu. subst u.
      destruct d2 as [|y d2]; [discriminate|]. apply all_digits_spec in H.
      exists (x :: d1), (y :: d2). repeat split; auto; discriminate.
    + intros (a & b & Ha & Hna & Hb & Hnb & [= -> ->]).
      rewrite Z.eqb_refl, (span_digits_app a us b Ha eq_refl). cbn [andb].
      destruct a as [|x a]; [congruence|]. rewrite Z.eqb_refl. cbn [andb].
      destruct b as [|y b]; [congruence|]. apply all_digits_spec. exact Hb.
Qed.

Lemma pat_uq_spec s : pat_uq s = true <-> QPat s \/ exists r, s = c_u :: r /\ QPat r.
Proof.
  unfold pat_uq. apply orb_spec; [apply pat_q_spec|]. destruct s as [|c r].
  - split; [discriminate|intros (r & [=] & _)].
  - etransitivity; [apply andb_spec; [apply Z.eqb_eq|apply pat_q_spec]|].
    split; [intros [-> H]; eauto|intros (r' & [= -> ->] & H); auto].
Qed.

Lemma pat_underscores_spec s : pat_underscores s = true <-> exists m, s = us :: m ++ [us].
Proof.
  unfold pat_underscores. destruct s as [|c [|d r]].
  - split; [discriminate|]. intros [m H]. discriminate.
  - split; [discriminate|]. intros [m H]. inversion H. destruct m; discriminate.
  - rewrite andb_true_iff, !Z.eqb_eq. split.
    + intros [-> Hl]. exists (removelast (d :: r)).
      assert (d :: r <> []) as Hne by discriminate.
      rewrite (app_removelast_last 0 Hne) at 1. rewrite Hl. reflexivity.
    + intros [m H]. inversion H; subst. split; [reflexivity|]. rewrite H2. apply last_last.
Qed.

Lemma existsb_str_eqb s l : existsb (str_eqb s) l = true <-> In s l.
Proof.
  rewrite existsb_exists. split.
  - intros [w [Hw He]]. apply str_eqb_spec in He. subst. exact Hw.
  - intros H. exists s. split; [exact H|apply str_eqb_spec; reflexivity].
Qed.

Lemma is_reserved_spec s : is_reserved s = true <-> Reserved s.
Proof.
  unfold is_reserved. etransitivity.
  { apply orb_spec; [|apply pat_underscores_spec].
    apply orb_spec; [|apply pat_prefix_digit_spec].
    apply orb_spec; [|apply pat_prefix_digit_spec].
    apply orb_spec; [|apply pat_prefix_digits_spec].
    apply orb_spec; [|apply pat_uq_spec].
    apply orb_spec; [|apply pat_prefix_digits_spec].
    apply orb_spec; [|apply pat_prefix_digits_spec].
    apply orb_spec; [apply existsb_str_eqb|apply pat_prefix_digits_spec]. }
  split.
  - intros [[[[[[[[H|H]|H]|H]|H]|H]|H]|H]|H].
    + apply R_word; exact H.
    + destruct H as [ds [Hd ->]]. apply R_void; exact Hd.
    + destruct H as [ds [Hd ->]]. apply R_int; exact Hd.
    + destruct H as [ds [Hd ->]]. apply R_uint; exact Hd.
    + destruct H as [(a & b & Ha & Hna & Hb & Hnb & ->)|(r & -> & a & b & Ha & Hna & Hb & Hnb & ->)];
        [apply R_q|apply R_uq]; auto.
    + destruct H as [ds [Hd ->]]. apply R_float; exact Hd.
    + destruct H as [d [Hd ->]]. apply R_com; exact Hd.
    + destruct H as [d [Hd ->]]. apply R_lpt; exact Hd.
    + destruct H as [m ->]. apply R_underscores.
  - intros H. destruct H.
    + do 8 left. assumption.
    + do 7 left. right. eauto.
    + do 6 left. right. eauto.
    + do 5 left. right. eauto.
    + do 4 left. right. left. exists a, b. auto 6.
    + do 4 left. right. right. eexists. split; [reflexivity|]. exists a, b. auto 6.
    + do 3 left. right. eauto.
    + do 2 left. right. eauto.
    + left. right. eauto.
    + right. eauto.
Qed.

Theorem name_ok_spec s : name_ok s = true <-> IdentSyntax s /\ ~ Reserved (lower s).
Proof.
  unfold name_ok, IdentSyntax. destruct s as [|c r].
  - split; [discriminate|]. intros [[c [r [H _]]] _]. discriminate.
  - etransitivity; [apply andb_spec; [apply andb_spec; [apply first_ok_spec|apply forallb_Forall, cont_ok_spec]|
      rewrite negb_true_iff, <- not_true_iff_false, is_reserved_spec; reflexivity]|].
    split.
    + intros [[Hf Hc] Hr]. split; [|exact Hr]. exists c, r. inversion Hc; subst. auto.
    + intros [[c' [r' [He [Hf Hc]]]] Hr]. inversion He; subst c' r'. split; [split|]; auto.
      constructor; [left; exact Hf|exact Hc].
Qed.

Lemma lower_length s : length (lower s) = length s.
Proof. apply map_length. Qed.

Lemma lowc_idem c : lowc (lowc c) = lowc c.
Proof.
  unfold lowc. destruct (is_upper c) eqn:E; [|rewrite E; reflexivity].
  apply is_upper_spec in E. unfold IsUpper in E.
  destruct (is_upper (c + 32)) eqn:E2; [|reflexivity].
  apply is_upper_spec in E2. unfold IsUpper in E2. lia.
Qed.

Lemma lower_idem s : lower (lower s) = lower s.
Proof. unfold lower. rewrite map_map. apply map_ext. exact lowc_idem. Qed.

Lemma first_ok_lowc c : first_ok (lowc c) = first_ok c.
Proof.
  unfold lowc. destruct (is_upper c) eqn:E; [|reflexivity].
  unfold first_ok. rewrite E. pose proof E as E'. apply is_upper_spec in E'. unfold IsUpper in E'.
  replace (is_lower (c + 32)) with true; [rewrite orb_true_r; reflexivity|].
  symmetry. apply is_lower_spec. unfold IsLower. lia.
Qed.

Lemma cont_ok_lowc c : cont_ok (lowc c) = cont_ok c.
Proof.
  unfold cont_ok. rewrite first_ok_lowc. unfold lowc. destruct (is_upper c) eqn:E; [|reflexivity].
  apply is_upper_spec in E. unfold IsUpper in E.
  replace (is_digit (c + 32)) with false; [replace (is_digit c) with false; [reflexivity|]|];
    symmetry; apply not_true_iff_false; rewrite is_digit_spec; unfold IsDigit; lia.
Qed.

(* case-insensitivity: names that differ only in the case of ASCII letters get the same verdict *)
Theorem name_ok_case_insensitive s t : lower s = lower t -> name_ok s = name_ok t.
Proof.
  intros H. unfold name_ok. destruct s as [|c r], t as [|c' r']; try discriminate; [reflexivity|].
  rewrite H. f_equal. f_equal.
  - cbn in H. inversion H. rewrite <- (first_ok_lowc c), <- (first_ok_lowc c'). congruence.
  - assert (forall l, forallb cont_ok l = forallb cont_ok (lower l)) as E.
    { induction l as [|x l IH]; [reflexivity|]. cbn. rewrite cont_ok_lowc, IH. reflexivity. }
    rewrite (E (c :: r)), (E (c' :: r')), H. reflexivity.
Qed.
