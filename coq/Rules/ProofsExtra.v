(* Readable consequences of the rules: "exactly one" serialization mode, and what a resolved reference is. *)
From Coq Require Import ZArith List Bool Lia.
From PV Require Import Rules.Names Rules.NamesProofs Rules.Defn Rules.Accept Rules.Spec Rules.Proofs.
Import ListNotations.
Open Scope Z_scope.

(* exactly one of @sealed / @extent *)
Definition ExactlyOneMode (sec : list stmt) : Prop :=
  exists l1 m l2, sec = l1 ++ m :: l2 /\ IsMode m
                  /\ Forall (fun s => ~ IsMode s) l1 /\ Forall (fun s => ~ IsMode s) l2.

Lemma exactly_one_mode sec :
  ((exists m, In m sec /\ IsMode m)
   /\ (forall l1 m l2, sec = l1 ++ m :: l2 -> IsMode m -> Forall (fun s => ~ IsMode s) l1))
  <-> ExactlyOneMode sec.
Proof.
  unfold ExactlyOneMode. split.
  - intros [[m [Hin Hm]] Honce]. apply in_split in Hin. destruct Hin as [l1 [l2 ->]].
    exists l1, m, l2. split; [reflexivity|]. split; [exact Hm|]. split; [apply (Honce l1 m l2 eq_refl Hm)|].
    rewrite Forall_forall. intros x Hx Hxm. apply in_split in Hx. destruct Hx as [l3 [l4 ->]].
    specialize (Honce (l1 ++ m :: l3) x l4).
    rewrite <- app_assoc in Honce. cbn in Honce. specialize (Honce eq_refl Hxm).
    rewrite Forall_forall in Honce. apply (Honce m); [apply in_elt|exact Hm].
  - intros [l1 [m [l2 [-> [Hm [H1 H2]]]]]]. split.
    + exists m. split; [apply in_elt|exact Hm].
    + intros k1 x k2 E Hx.
      (* x is a mode statement of l1 ++ m :: l2, hence x is m at the same position *)
      revert k1 E. induction l1 as [|a l1 IH]; intros k1 E.
      * destruct k1 as [|b k1]; [constructor|]. cbn in E. injection E as E1 E2.
        exfalso. rewrite Forall_forall in H2. apply (H2 x); [rewrite E2; apply in_elt|exact Hx].
      * destruct k1 as [|b k1]; [constructor|]. cbn in E. injection E as E1 E2. subst b.
        inversion H1; subst. constructor; [assumption|]. apply IH; assumption.
Qed.

Theorem valid_exactly_one_mode e i first depr k sec :
  SectionRules e i first depr k sec -> ExactlyOneMode sec.
Proof.
  intros [_ S2 S3 _ _ _ _ _ _ _ _ _]. apply exactly_one_mode. split; assumption.
Qed.

Lemma mode_of_unique l1 m l2 :
  IsMode m -> Forall (fun s => ~ IsMode s) l1 -> mode_of (l1 ++ m :: l2) = mode_of_stmt m.
Proof. apply mode_of_first. Qed.

Lemma names_eqb_spec a : forall b, names_eqb a b = true <-> a = b.
Proof.
  induction a as [|x a IH]; intros [|y b]; cbn; try (split; discriminate); try tauto.
  rewrite andb_true_iff, str_eqb_spec, IH. split; [intros [-> ->]; reflexivity|intros H; inversion H; auto].
Qed.

(* a reference resolves to p only if p is a dependency with exactly that name and version and no other dependency
   has the same version and a name equal up to letter case *)
Theorem resolve_spec e i c M m p :
  resolve e i c M m = Some p ->
  In p (e_deps e) /\ p_name p = resolve_name i c /\ p_major p = M /\ p_minor p = m
  /\ (forall q, In q (e_deps e) -> map lower (p_name q) = map lower (resolve_name i c) ->
                p_major q = M -> p_minor q = m -> q = p).
Proof.
  unfold resolve. set (nm := resolve_name i c).
  destruct (filter (dep_matches nm M m) (e_deps e)) as [|p' [|p'' r]] eqn:E; try discriminate.
  destruct (names_eqb (p_name p') nm) eqn:En; [|discriminate]. intros H. inversion H; subst p'.
  apply names_eqb_spec in En.
  assert (In p (filter (dep_matches nm M m) (e_deps e))) as Hin by (rewrite E; left; reflexivity).
  apply filter_In in Hin. destruct Hin as [Hin Hm]. unfold dep_matches in Hm.
  apply andb_true_iff in Hm. destruct Hm as [Hm Hm3]. apply andb_true_iff in Hm. destruct Hm as [Hm1 Hm2].
  apply Z.eqb_eq in Hm2, Hm3. repeat split; auto.
  intros q Hq Hn HM Hmm.
  assert (In q (filter (dep_matches nm M m) (e_deps e))) as Hq'.
  { apply filter_In. split; [exact Hq|]. unfold dep_matches.
    rewrite !andb_true_iff, !Z.eqb_eq. repeat split; auto. apply names_eqb_spec. exact Hn. }
  rewrite E in Hq'. destruct Hq' as [->|[]]. reflexivity.
Qed.

(* relative references are completed with the namespace of the referring definition *)
Lemma resolve_name_relative i c : resolve_name i [c] = full_ns i ++ [c].
Proof. reflexivity. Qed.
Lemma resolve_name_absolute i a b r : resolve_name i (a :: b :: r) = a :: b :: r.
Proof. reflexivity. Qed.

(* deprecation is transitive, also through arrays *)
Definition elem_of (t : tx) : sx := match t with TxS s | TxFix s _ | TxVarI s _ | TxVarE s _ => s end.

Lemma placement_deprecated e i depr st t :
  PlacementOK e i depr st t -> ref_deprecated e i (elem_of t) = true -> depr = true.
Proof. destruct t; cbn; tauto. Qed.

Lemma in_attrs_of sec s a : In s sec -> attr_of s = [a] -> In a (attrs_of sec).
Proof. intros H E. unfold attrs_of. apply in_flat_map. exists s. rewrite E. split; [exact H|left; reflexivity]. Qed.

Theorem valid_deprecation_transitive e d sec t n :
  Valid e d -> (sec = d_first d \/ In sec (d_more d)) -> In (SField t n) sec ->
  ref_deprecated e (d_id d) (elem_of t) = true -> has_dir DDeprecated (d_first d) = true.
Proof.
  unfold Valid. intros [_ H] Hsec Hin Hd.
  assert (forall first k, SectionRules e (d_id d) first (has_dir DDeprecated (d_first d)) k sec ->
          has_dir DDeprecated (d_first d) = true) as K.
  { intros first k R. destruct R as [_ _ _ _ _ _ _ _ S9 _ _ _].
    rewrite Forall_forall in S9. specialize (S9 _ (in_attrs_of sec _ _ Hin eq_refl)). cbn in S9.
    eapply placement_deprecated; eauto. }
  destruct (d_more d) as [|sec2 [|sec3 more]].
  - destruct Hsec as [->|[]]. destruct H as [R _]. eapply K; eauto.
  - destruct H as [R1 [R2 _]]. destruct Hsec as [->|[->|[]]]; eapply K; eauto.
  - contradiction.
Qed.

(* unions: at least two variants, no padding *)
Definition is_fieldb (s : stmt) : bool := match s with SField _ _ => true | _ => false end.

Lemma layout_fields_count e i sec :
  (forall w, ~ In (SPad w) sec) ->
  length (layout_fields e i (attrs_of sec)) = length (filter is_fieldb sec).
Proof.
  induction sec as [|s r IH]; intros Hp; [reflexivity|].
  assert (forall w, ~ In (SPad w) r) as Hr by (intros w Hw; apply (Hp w); right; exact Hw).
  unfold attrs_of, layout_fields in *. cbn [flat_map filter]. rewrite flat_map_app, app_length, (IH Hr).
  destruct s as [t n|w|t n v|d v]; cbn; try reflexivity.
  exfalso. apply (Hp w). left. reflexivity.
Qed.

Theorem valid_union_shape e i first depr k sec :
  SectionRules e i first depr k sec -> has_dir DUnion sec = true ->
  (forall w, ~ In (SPad w) sec) /\ (2 <= length (filter is_fieldb sec))%nat.
Proof.
  intros [_ _ _ _ _ _ _ S8 S9 _ _ _] Hu.
  assert (forall w, ~ In (SPad w) sec) as Hp.
  { intros w Hw. rewrite Forall_forall in S9. specialize (S9 _ (in_attrs_of sec _ _ Hw eq_refl)).
    cbn in S9. rewrite Hu in S9. discriminate. }
  split; [exact Hp|]. specialize (S8 Hu). rewrite (layout_fields_count e i sec Hp) in S8. lia.
Qed.
