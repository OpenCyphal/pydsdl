(* The byte-buffer writer refines appending to a bit list: fast path, slow path, alignment, byte-wise copies. *)
From Coq Require Import ZArith List Bool Lia.
From PV Require Import Serdes.Model Serdes.Bits Serdes.BitsProofs.
Import ListNotations.
Open Scope Z_scope.

(* the buffer carries the L bits given by f, zero padded to whole bytes *)
Definition BRf (buf : list Z) (L : Z) (f : Z -> bool) : Prop :=
  0 <= L /\ zlen buf = (L + 7) / 8 /\ bytes_ok buf /\ forall j, 0 <= j -> getbit buf j = (j <? L) && f j.

Lemma BRf_ext buf L f g : (forall j, 0 <= j < L -> f j = g j) -> BRf buf L f -> BRf buf L g.
Proof.
  intros E (H0 & H1 & H2 & H3). repeat split; auto. intros j Hj. rewrite H3 by assumption.
  destruct (j <? L) eqn:C; simpl; auto. apply E. lia.
Qed.

(* put_bit at a position inside the buffer or in the byte right after it: the buffer grows by at most one (zero) byte,
   and exactly the bit at [pos] changes *)
Lemma zlen_put_bit buf pos b : pos / 8 <= zlen buf -> zlen (put_bit buf pos b) = Z.max (zlen buf) (pos / 8 + 1).
Proof.
  intros Hl. unfold put_bit, zlen in *. rewrite update_nth_length.
  destruct (Z.of_nat (length buf) <=? pos / 8) eqn:C; [rewrite app_length; cbn [length]|]; lia.
Qed.

Lemma put_bit_ok buf pos b : bytes_ok buf -> bytes_ok (put_bit buf pos b).
Proof.
  intros H. unfold put_bit. apply update_nth_ok.
  - destruct (zlen buf <=? pos / 8); [apply bytes_ok_app; [assumption|apply (bytes_ok_zeros 1)]|assumption].
  - intros x Hx. apply set_byte_ok; [assumption|]. apply Z.mod_pos_bound. reflexivity.
Qed.

Lemma getbit_put_bit buf pos b j : 0 <= pos -> pos / 8 <= zlen buf -> 0 <= j ->
  getbit (put_bit buf pos b) j = if j =? pos then b else getbit buf j.
Proof.
  intros Hp Hl Hj. pose proof (Z.div_pos pos 8 Hp eq_refl) as Hq. unfold put_bit. set (buf1 := if zlen buf <=? pos / 8 then buf ++ [0] else buf).
  assert (G1 : getbit buf1 j = getbit buf j).
  { subst buf1. destruct (zlen buf <=? pos / 8); [apply (getbit_app_zeros buf 1)|reflexivity]. }
  assert (L1 : (Z.to_nat (pos / 8) < length buf1)%nat).
  { subst buf1. unfold zlen in *. destruct (Z.of_nat (length buf) <=? pos / 8) eqn:C; [rewrite app_length; cbn [length]|]; lia. }
  rewrite getbit_update_nth, Z2Nat.id, <- G1 by assumption.
  destruct (j / 8 =? pos / 8) eqn:E.
  - rewrite testbit_put by (apply Z.mod_pos_bound; reflexivity). apply Z.eqb_eq in E. rewrite <- E. fold (getbit buf1 j).
    rewrite (same_byte_bit j pos E). reflexivity.
  - replace (j =? pos) with false; [reflexivity|]. symmetry. apply Z.eqb_neq. intros ->. rewrite Z.eqb_refl in E. discriminate.
Qed.

Lemma put_bit_BRf buf L f b : BRf buf L f -> BRf (put_bit buf L b) (L + 1) (fun j => if j <? L then f j else b).
Proof.
  intros (H0 & H1 & H2 & H3).
  assert (Hq : L / 8 <= zlen buf) by (rewrite H1; Z.to_euclidean_division_equations; lia).
  split; [lia|]. split. { rewrite zlen_put_bit, H1 by assumption. Z.to_euclidean_division_equations; lia. }
  split. { apply put_bit_ok. assumption. }
  intros j Hj. rewrite getbit_put_bit, H3 by assumption. destruct (j =? L) eqn:E.
  - apply Z.eqb_eq in E. subst j. rewrite Z.ltb_irrefl. replace (L <? L + 1) with true by lia. reflexivity.
  - replace (j <? L + 1) with (j <? L) by lia. destruct (j <? L); reflexivity.
Qed.

Lemma slow_loop_BRf n : forall i buf f value off, BRf buf (off + i) f ->
  BRf (slow_loop n i value off buf) (off + i + Z.of_nat n) (fun j => if j <? off + i then f j else Z.testbit value (j - off)).
Proof.
  induction n as [|n IH]; intros i buf f value off H.
  - cbn [slow_loop]. replace (off + i + Z.of_nat 0) with (off + i) by lia.
    eapply BRf_ext; [|exact H]. intros j Hj. cbv beta. replace (j <? off + i) with true by lia. reflexivity.
  - cbn [slow_loop]. pose proof (put_bit_BRf _ _ _ (Z.testbit value i) H) as H1.
    replace (off + i + 1) with (off + (i + 1)) in H1 by lia.
    pose proof (IH (i + 1) _ _ value off H1) as H2.
    replace (off + (i + 1) + Z.of_nat n) with (off + i + Z.of_nat (S n)) in H2 by lia.
    eapply BRf_ext; [|exact H2]. intros j Hj. cbv beta.
    destruct (j <? off + i) eqn:C1.
    + replace (j <? off + (i + 1)) with true by lia. reflexivity.
    + destruct (j <? off + (i + 1)) eqn:C2; [|reflexivity]. f_equal. lia.
Qed.

Lemma BRf_aligned_append buf L f data :
  BRf buf L f -> L mod 8 = 0 -> bytes_ok data ->
  BRf (buf ++ data) (L + 8 * zlen data) (fun j => if j <? L then f j else getbit data (j - L)).
Proof.
  intros (H0 & H1 & H2 & H3) HL Hd. pose proof (zlen_nonneg data).
  assert (E8 : 8 * zlen buf = L) by (rewrite H1; Z.to_euclidean_division_equations; lia).
  split; [lia|]. split. { rewrite zlen_app. Z.to_euclidean_division_equations; lia. }
  split. { apply bytes_ok_app; assumption. }
  intros j Hj. destruct (j <? L) eqn:C.
  - rewrite getbit_app_l, H3, C by lia. replace (j <? L + 8 * zlen data) with true by lia. reflexivity.
  - rewrite getbit_app_r, E8 by lia. destruct (j <? L + 8 * zlen data) eqn:D; [reflexivity|]. apply getbit_beyond. lia.
Qed.

(* the writer represents the bit list bs *)
Definition WR (w : writer) (bs : list bool) : Prop := woff w = zlen bs /\ BRf (wbuf w) (zlen bs) (bit_at bs).

Lemma WR_new : WR w_new [].
Proof.
  split; [reflexivity|]. split; [reflexivity|]. split; [reflexivity|]. split; [constructor|].
  intros j Hj. rewrite getbit_beyond, bit_at_beyond by assumption. symmetry. apply andb_false_r.
Qed.

Lemma WR_append w bs L' f' cs buf' :
  WR w bs -> BRf buf' L' f' -> L' = zlen bs + zlen cs ->
  (forall j, 0 <= j < L' -> f' j = if j <? zlen bs then bit_at bs j else bit_at cs (j - zlen bs)) ->
  WR (mkW buf' L') (bs ++ cs).
Proof.
  intros [Hoff HB] H' HL Hf. split; cbn [woff wbuf]; rewrite zlen_app, <- HL; [reflexivity|].
  eapply BRf_ext; [|exact H']. intros j Hj. rewrite Hf, bit_at_app by lia. reflexivity.
Qed.

Lemma write_slow_WR w bs value n : 0 <= n -> WR w bs -> WR (write_slow w value n) (bs ++ low_bits (Z.to_nat n) value).
Proof.
  intros Hn HW. pose proof HW as [Hoff HB]. unfold write_slow. rewrite Hoff.
  pose proof (slow_loop_BRf (Z.to_nat n) 0 (wbuf w) (bit_at bs) value (zlen bs)) as H.
  rewrite Z.add_0_r, Z2Nat.id in H by assumption.
  eapply WR_append; [exact HW|exact (H HB)|rewrite zlen_low_bits; lia|].
  intros j Hj. cbv beta. destruct (j <? zlen bs) eqn:C; [reflexivity|].
  rewrite bit_at_low_bits by lia. replace (j - zlen bs <? Z.of_nat (Z.to_nat n)) with true by lia. reflexivity.
Qed.

(* for byte_val in bytes: write_bits(byte_val, 8) appends the bits of the byte string *)
Fixpoint bits_of_bytes (bs : list Z) : list bool :=
  match bs with [] => [] | b :: r => low_bits 8 b ++ bits_of_bytes r end.

Lemma zlen_bits_of_bytes bs : zlen (bits_of_bytes bs) = 8 * zlen bs.
Proof. induction bs as [|b r IH]; [reflexivity|]. cbn [bits_of_bytes]. rewrite zlen_app, zlen_low_bits, zlen_cons, IH. lia. Qed.

Lemma bit_at_bits_of_bytes bs : bytes_ok bs -> forall j, 0 <= j -> bit_at (bits_of_bytes bs) j = getbit bs j.
Proof.
  induction 1 as [|b r Hb Hr IH]; intros j Hj.
  - rewrite getbit_beyond by assumption. apply bit_at_beyond. assumption.
  - cbn [bits_of_bytes]. rewrite bit_at_app, zlen_low_bits, getbit_cons by assumption.
    change (Z.of_nat 8) with 8. destruct (j <? 8) eqn:C.
    + rewrite bit_at_low_bits by assumption. change (Z.of_nat 8) with 8. rewrite C. reflexivity.
    + apply IH. lia.
Qed.

Lemma bits_of_to_bytes_le n x : bits_of_bytes (to_bytes_le n x) = low_bits (8 * n) x.
Proof.
  apply bits_ext; rewrite zlen_bits_of_bytes, zlen_to_bytes_le. { rewrite zlen_low_bits. lia. }
  intros j Hj. rewrite bit_at_bits_of_bytes, getbit_to_bytes_le, bit_at_low_bits by (try apply to_bytes_le_ok; lia).
  replace (j <? Z.of_nat (8 * n)) with true by lia. reflexivity.
Qed.

Lemma WR_append_bytes w bs data : WR w bs -> zlen bs mod 8 = 0 -> bytes_ok data ->
  WR (mkW (wbuf w ++ data) (woff w + 8 * zlen data)) (bs ++ bits_of_bytes data).
Proof.
  intros HW Hm Hd. pose proof HW as [Hoff HB]. rewrite Hoff.
  eapply WR_append; [exact HW|exact (BRf_aligned_append _ _ _ data HB Hm Hd)|rewrite zlen_bits_of_bytes; reflexivity|].
  intros j Hj. cbv beta. destruct (j <? zlen bs) eqn:C; [reflexivity|]. symmetry. apply bit_at_bits_of_bytes; [assumption|lia].
Qed.

(* The fast path is taken at a byte boundary, where the buffer ends exactly at the write position: it appends the
   n / 8 low bytes of the value; the n mod 8 bits that are left go through the bit-wise loop. *)
Theorem write_bits_WR w bs value n : 0 <= n -> WR w bs -> WR (write_bits w value n) (bs ++ low_bits (Z.to_nat n) value).
Proof.
  intros Hn HW. unfold write_bits.
  destruct ((woff w mod 8 =? 0) && (8 <=? n)) eqn:C; [|apply write_slow_WR; assumption].
  apply andb_prop in C. destruct C as [C1 C2]. pose proof HW as [Hoff (_ & Hlen & _)]. rewrite Hoff in C1.
  assert (E : (zlen bs + 7) / 8 = zlen bs / 8) by (Z.to_euclidean_division_equations; lia).
  rewrite Hoff, Hlen, E, Z.leb_refl, Z.sub_diag. change (zeros 0 ++ ?d) with d. rewrite <- Hoff.
  set (full := n / 8). pose proof (Z.mod_pos_bound n 8 eq_refl) as Hrem.
  assert (Hfull : 0 <= full * 8) by (subst full; Z.to_euclidean_division_equations; lia).
  assert (W1 : WR (mkW (wbuf w ++ to_bytes_le (Z.to_nat full) (Z.land value (Z.shiftl 1 (full * 8) - 1))) (woff w + full * 8))
                  (bs ++ low_bits (Z.to_nat (full * 8)) value)).
  { pose proof (WR_append_bytes w bs _ HW ltac:(lia) (to_bytes_le_ok (Z.to_nat full) (Z.land value (Z.shiftl 1 (full * 8) - 1)))) as H.
    rewrite zlen_to_bytes_le, bits_of_to_bytes_le, (low_bits_land _ (full * 8)) in H by lia.
    replace (8 * Z.of_nat (Z.to_nat full)) with (full * 8) in H by lia.
    replace (8 * Z.to_nat full)%nat with (Z.to_nat (full * 8)) in H by lia. exact H. }
  replace (Z.to_nat n) with (Z.to_nat (full * 8 + n mod 8)) by (subst full; f_equal; Z.to_euclidean_division_equations; lia).
  rewrite low_bits_shiftr, app_assoc by lia. destruct (0 <? n mod 8) eqn:R.
  - apply write_slow_WR; [lia|exact W1].
  - replace (n mod 8) with 0 by lia. rewrite app_nil_r. exact W1.
Qed.

Lemma write_bits_off w v n : woff (write_bits w v n) = woff w + n.
Proof.
  unfold write_bits. destruct ((woff w mod 8 =? 0) && (8 <=? n)); [|reflexivity].
  destruct (0 <? n mod 8) eqn:R; cbn [write_slow woff]; Z.to_euclidean_division_equations; lia.
Qed.

Theorem w_align_to_WR w bs a : 1 <= a -> WR w bs -> WR (w_align_to w a) (bs ++ zero_bits (pad_len a (zlen bs))).
Proof.
  intros Ha HW. unfold w_align_to. replace (a <=? 0) with false by lia. rewrite (proj1 HW).
  destruct (zlen bs mod a =? 0) eqn:R.
  - rewrite pad_len_0 by lia. change (zero_bits 0) with (@nil bool). rewrite app_nil_r. exact HW.
  - rewrite pad_len_nz by lia. pose proof (Z.mod_pos_bound (zlen bs) a ltac:(lia)).
    rewrite <- (low_bits_zero _ _ eq_refl). apply write_bits_WR; [lia|exact HW].
Qed.

Lemma w_align_to_off w a : 1 <= a -> woff (w_align_to w a) = woff w + pad_len a (woff w).
Proof.
  intros Ha. unfold w_align_to. replace (a <=? 0) with false by lia. destruct (woff w mod a =? 0) eqn:R.
  - rewrite pad_len_0 by lia. lia.
  - rewrite write_bits_off. rewrite pad_len_nz by lia. reflexivity.
Qed.

Theorem write_bytes_WR data : forall w bs, WR w bs -> WR (write_bytes w data) (bs ++ bits_of_bytes data).
Proof.
  unfold write_bytes. induction data as [|b r IH]; intros w bs HW; cbn [fold_left bits_of_bytes].
  - rewrite app_nil_r. exact HW.
  - rewrite app_assoc. apply IH. apply (write_bits_WR w bs b 8 ltac:(lia) HW).
Qed.

Lemma write_bytes_off data : forall w, woff (write_bytes w data) = woff w + 8 * zlen data.
Proof.
  unfold write_bytes. induction data as [|b r IH]; intros w; cbn [fold_left].
  - unfold zlen; simpl; lia.
  - rewrite IH, write_bits_off, zlen_cons. lia.
Qed.

(* what finish() returns when a whole number of bytes has been written *)
Lemma WR_packs w bs : WR w bs -> zlen bs mod 8 = 0 -> packs (w_finish w) bs.
Proof.
  intros [Hoff (H0 & H1 & H2 & H3)] Hm. unfold w_finish. split; [assumption|].
  split. { rewrite H1. Z.to_euclidean_division_equations; lia. }
  intros j Hj. rewrite H3 by assumption. destruct (j <? zlen bs) eqn:C; [reflexivity|]. symmetry. apply bit_at_beyond. lia.
Qed.

Lemma packs_bits_of_bytes bytes : bytes_ok bytes -> packs bytes (bits_of_bytes bytes).
Proof.
  intros H. split; [assumption|]. split; [rewrite zlen_bits_of_bytes; reflexivity|].
  intros j Hj. symmetry. apply bit_at_bits_of_bytes; assumption.
Qed.

Lemma packs_eq bytes bs : packs bytes bs -> bits_of_bytes bytes = bs.
Proof.
  intros (H1 & H2 & H3). apply bits_ext. { rewrite zlen_bits_of_bytes. exact H2. }
  intros j Hj. rewrite bit_at_bits_of_bytes by (auto; lia). apply H3. lia.
Qed.
