(* The bit-list encoding depends on the offset only modulo 8 and keeps the alignment.
   serialize refines it: for every valid value the writer ends up representing (bits so far) ++ enc t v (offset). *)
From Coq Require Import ZArith List Bool Lia ZifyBool.
From PV Require Import Layout.Types Layout.Proofs Layout.ProofsSpec.
From PV Require Import Serdes.Float Serdes.Utf8 Serdes.Model Serdes.Bits Serdes.BitsProofs Serdes.WriterProofs Serdes.Spec.
Import ListNotations.
Open Scope Z_scope.

Lemma prefix_width_nonneg a n : 1 <= a -> 0 <= prefix_width a n.
Proof. intros. unfold prefix_width. lia. Qed.

Lemma pow2_ceil8_nonneg x : 0 <= pow2_ceil8 x.
Proof. unfold pow2_ceil8. apply Z.pow_nonneg. lia. Qed.

Lemma union_tag_width_nonneg fs : 0 <= union_tag_width fs.
Proof. unfold union_tag_width, tag_width. pose proof (pow2_ceil8_nonneg (bitlen (Z.of_nat (length fs) - 1))). lia. Qed.

Lemma header_width_nonneg a : 0 <= header_width a.
Proof. unfold header_width. lia. Qed.

Lemma void_width_nonneg t : wft t = true -> 0 <= void_width t.
Proof. destruct t; cbn [void_width wft]; intros H; lia. Qed.

Lemma max_align_pos fs : 1 <= max_align align fs.
Proof. rewrite max_align_fields. discriminate. Qed.

Lemma prim_width_pos p : prim_ok p = true -> 1 <= prim_width p <= 64.
Proof. destruct p; simpl; lia. Qed.

Lemma cong8_shift o o' x : (o - o') mod 8 = 0 -> (o + x - (o' + x)) mod 8 = 0.
Proof. intros H. replace (o + x - (o' + x)) with (o - o') by lia. exact H. Qed.

Lemma mod8_add o x : o mod 8 = 0 -> x mod 8 = 0 -> (o + x) mod 8 = 0.
Proof. intros Ho Hx. rewrite Z.add_mod, Ho, Hx by discriminate. reflexivity. Qed.

Lemma mod8_align t x : x mod 8 = 0 -> x mod align t = 0.
Proof. intros H. destruct (align_values t) as [E|E]; rewrite E; [apply Z.mod_1_r|exact H]. Qed.

Lemma align_add t x y : x mod align t = 0 -> y mod 8 = 0 -> (x + y) mod align t = 0.
Proof. intros A B. destruct (align_values t) as [E|E]; rewrite E in *; [apply Z.mod_1_r|apply mod8_add; assumption]. Qed.

Lemma pad_len_cong a o o' : a = 1 \/ a = 8 -> (o - o') mod 8 = 0 -> pad_len a o = pad_len a o'.
Proof. intros [->| ->] H; unfold pad_len; Z.to_euclidean_division_equations; lia. Qed.

Definition off_indep (t : ty) : Prop := forall v o o', (o - o') mod 8 = 0 -> enc t v o = enc t v o'.

Lemma enc_elems_cong (Ee : val -> Z -> list bool) :
  (forall v o o', (o - o') mod 8 = 0 -> Ee v o = Ee v o') ->
  forall vs o o', (o - o') mod 8 = 0 -> enc_elems Ee vs o = enc_elems Ee vs o'.
Proof.
  intros H. induction vs as [|v r IH]; intros o o' C; cbn [enc_elems]; [reflexivity|].
  rewrite (H v o o' C). f_equal. apply IH, cong8_shift, C.
Qed.

Lemma enc_fields_cong fs : Forall (fun f => off_indep (snd f)) fs ->
  forall vs o o', (o - o') mod 8 = 0 -> enc_fields enc fs vs o = enc_fields enc fs vs o'.
Proof.
  induction 1 as [|[nm t] r Ht Hr IH]; intros vs o o' C; cbn [enc_fields]; [reflexivity|]. cbn [snd] in Ht.
  rewrite (pad_len_cong (align t) o o' (align_values t) C). destruct nm as [nm|].
  - destruct vs as [|v vs']; [reflexivity|].
    set (p := zero_bits (pad_len (align t) o')). set (v' := match v with VOmit => default_value t | _ => v end).
    rewrite (Ht v' (o + zlen p) (o' + zlen p)) by apply cong8_shift, C. f_equal. f_equal. apply IH. do 2 apply cong8_shift. exact C.
  - f_equal. apply IH, cong8_shift, C.
Qed.

Lemma enc_variant_cong fs : Forall (fun f => off_indep (snd f)) fs ->
  forall k v o o', (o - o') mod 8 = 0 -> enc_variant enc fs k v o = enc_variant enc fs k v o'.
Proof.
  induction 1 as [|f r Hf Hr IH]; intros k v o o' C; cbn [enc_variant]; [reflexivity|].
  destruct k; [apply Hf; assumption|apply IH; assumption].
Qed.

Theorem enc_offset_mod : forall t, off_indep t.
Proof.
  induction t as [p|wd|e n IHe|e n IHe|nm fs IHfs|nm fs IHfs|i ext IHi] using ty_ind'; unfold off_indep; intros v o o' C; cbn [enc]; try reflexivity.
  - destruct v; try reflexivity. apply enc_elems_cong; assumption.
  - destruct v; try reflexivity. f_equal. apply enc_elems_cong; [assumption|apply cong8_shift, C].
  - destruct v; try reflexivity. rewrite (enc_fields_cong fs IHfs vs o o' C). f_equal. f_equal.
    apply pad_len_cong; [rewrite max_align_fields; auto|apply cong8_shift, C].
  - destruct v; try reflexivity. rewrite (enc_variant_cong fs IHfs (Z.to_nat k) v (o + union_tag_width fs) (o' + union_tag_width fs)) by apply cong8_shift, C.
    f_equal. f_equal. apply pad_len_cong; [rewrite max_align_fields; auto|apply cong8_shift, C].
Qed.

Lemma prefix_width_mod8 e n : wft (TVar e n) = true -> prefix_width (align e) n mod 8 = 0 /\ 8 <= prefix_width (align e) n.
Proof.
  cbn [wft]. rewrite !andb_true_iff, !Z.leb_le. intros [[_ Hn] Hb]. rewrite prefix_width_eq by assumption. destruct (spec_prefix_pos n) as [A D]. split; [apply Z.mod_divide; [discriminate|exact D]|exact A].
Qed.

Lemma tag_width_mod8 nm fs : wft (TUnion nm fs) = true -> union_tag_width fs mod 8 = 0 /\ 8 <= union_tag_width fs.
Proof.
  cbn [wft]. rewrite !andb_true_iff, !Z.leb_le. intros [[_ Hn] Hb]. rewrite union_tag_eq by assumption. destruct (spec_tag_pos (Z.of_nat (length fs))) as [A D]. split; [apply Z.mod_divide; [discriminate|exact D]|exact A].
Qed.

Lemma header_width_delim i : (match i with TStruct _ _ | TUnion _ _ => true | _ => false end) = true -> header_width (align i) = 32.
Proof. destruct i; try discriminate; intros _; cbn [align]; rewrite max_align_fields; reflexivity. Qed.

Definition keeps_align (t : ty) : Prop :=
  forall v o, o mod align t = 0 -> (o + zlen (enc t v o)) mod align t = 0.

Lemma enc_elems_aligned e : keeps_align e -> forall vs o, o mod align e = 0 -> (o + zlen (enc_elems (enc e) vs o)) mod align e = 0.
Proof.
  intros He. induction vs as [|v r IH]; intros o Ho; cbn [enc_elems].
  - change (zlen (@nil bool)) with 0. rewrite Z.add_0_r. exact Ho.
  - rewrite zlen_app, Z.add_assoc. apply IH. apply He. exact Ho.
Qed.

Lemma enc_composite_aligned t v o : (match t with TStruct _ _ | TUnion _ _ => true | _ => false end) = true ->
  o mod 8 = 0 -> (o + zlen (enc t v o)) mod 8 = 0.
Proof.
  destruct t; try discriminate; intros _ Ho; cbn [enc]; destruct v; try (rewrite Z.add_0_r; exact Ho); rewrite max_align_fields;
    rewrite zlen_app, zlen_zero_bits by (apply pad_len_range; lia); rewrite Z.add_assoc; apply pad_len_aligned; lia.
Qed.

Theorem enc_aligned : forall t, wft t = true -> keeps_align t.
Proof.
  apply wft_ind.
  - intros p _ v o _. apply Z.mod_1_r.
  - intros w _ v o _. apply Z.mod_1_r.
  - intros e n _ _ IHe v o Ho. cbn [align enc] in *. destruct v; try (rewrite Z.add_0_r; exact Ho). apply enc_elems_aligned; assumption.
  - intros e n _ Hn Hb IHe v o Ho. cbn [align enc] in *. destruct v; try (rewrite Z.add_0_r; exact Ho).
    rewrite zlen_app, zlen_low_bits, Z.add_assoc, Z2Nat.id by apply prefix_width_nonneg, align_pos.
    apply enc_elems_aligned; [exact IHe|].
    assert (P8 : prefix_width (align e) n mod 8 = 0).
    { rewrite prefix_width_eq by assumption. apply Z.mod_divide; [discriminate|apply spec_prefix_pos]. }
    destruct (align_values e) as [A|A]; rewrite A in Ho, P8 |- *; [apply Z.mod_1_r|apply mod8_add; assumption].
  - intros nm fs _ _ v o Ho. cbn [align] in *. rewrite max_align_fields in *. apply enc_composite_aligned; [reflexivity|exact Ho].
  - intros nm fs _ _ _ _ v o Ho. cbn [align] in *. rewrite max_align_fields in *. apply enc_composite_aligned; [reflexivity|exact Ho].
  - intros i ext _ A8 _ _ _ IHi v o Ho. pose proof (IHi v 0) as M. cbn [align enc] in *. rewrite A8 in *.
    rewrite zlen_app, zlen_low_bits. apply mod8_add; [exact Ho|]. apply (mod8_add 32); [reflexivity|exact (M eq_refl)].
Qed.

Lemma enc_composite_mod8 i v : (match i with TStruct _ _ | TUnion _ _ => true | _ => false end) = true -> zlen (enc i v 0) mod 8 = 0.
Proof. intros Hc. exact (enc_composite_aligned i v 0 Hc eq_refl). Qed.

(* an n-bit field keeps its value modulo 2^n only: writing x leaves the bits of any y congruent to x *)
Lemma write_cong_WR w bs x y n : 0 <= n -> x mod 2 ^ n = y mod 2 ^ n -> WR w bs ->
  WR (write_bits w x n) (bs ++ low_bits (Z.to_nat n) (y mod 2 ^ n)).
Proof.
  intros Hn E HW. rewrite <- E, (low_bits_mod _ n) by (apply Z2Nat.id; assumption). apply write_bits_WR; assumption.
Qed.

Lemma ser_prim_enc p v w bs : prim_ok p = true -> valid_prim p v = true -> WR w bs ->
  exists w', ser_prim p v w = Ok w' /\ WR w' (bs ++ enc_prim p v).
Proof.
  intros Hp Hv HW. pose proof (prim_width_pos p Hp) as Hw.
  destruct p as [ | wd c | wd | wd c | | ]; unfold valid_prim in Hv; unfold ser_prim, enc_prim, canon_prim; cbn [prim_width] in *.
  - destruct v; try discriminate; cbn [bool_of]; eexists; (split; [reflexivity|]).
    + pose proof (write_bits_WR w bs (if b then 1 else 0) 1 Z.le_0_1 HW) as H. destruct b; exact H.
    + pose proof (write_bits_WR w bs (if z =? 0 then 0 else 1) 1 Z.le_0_1 HW) as H. destruct (z =? 0); exact H.
  - destruct (as_int v) as [z|]; [|discriminate]. eexists; split; [reflexivity|]. apply write_cong_WR; [lia| |assumption].
    destruct c; cbn [cast_int]; [reflexivity|]. rewrite land_mask by lia. reflexivity.
  - destruct (as_int v) as [z|]; [|discriminate]. eexists; split; [reflexivity|]. apply write_cong_WR; [lia| |assumption].
    cbn [cast_int]. rewrite land_mask by lia. apply Z.mod_mod, Z.pow_nonzero; lia.
  - destruct v; try discriminate. eexists; split; [reflexivity|].
    pose proof (write_bytes_WR (to_bytes_le (Z.to_nat (wd / 8)) (fcast c wd bits)) w bs HW) as H.
    rewrite bits_of_to_bytes_le in H. replace (8 * Z.to_nat (wd / 8))%nat with (Z.to_nat wd) in H; [exact H|].
    simpl in Hp. assert (wd = 16 \/ wd = 32 \/ wd = 64) by lia. destruct H0 as [ -> | [ -> | -> ] ]; reflexivity.
  - destruct (as_int v) as [z|]; [|discriminate]. eexists; split; [reflexivity|]. apply write_cong_WR; [lia| |assumption].
    apply (f_equal (fun x => x mod 2 ^ 8) (land_mask z 8 (Pos2Z.is_nonneg 8))).
  - destruct (as_int v) as [z|]; [|discriminate]. eexists; split; [reflexivity|]. apply write_cong_WR; [lia| |assumption].
    apply (f_equal (fun x => x mod 2 ^ 8) (land_mask z 8 (Pos2Z.is_nonneg 8))).
Qed.

Definition ser_ok (t : ty) : Prop :=
  forall v w bs, validb t v = true -> WR w bs -> exists w', ser t v w = Ok w' /\ WR w' (bs ++ enc t v (zlen bs)).

Lemma ser_elems_enc e : ser_ok e -> forall vs w bs, forallb (validb e) vs = true -> WR w bs ->
  exists w', ser_elems (ser e) vs w = Ok w' /\ WR w' (bs ++ enc_elems (enc e) vs (zlen bs)).
Proof.
  intros He. induction vs as [|v r IH]; intros w bs Hv HW; cbn [ser_elems enc_elems].
  - eexists; split; [reflexivity|]. rewrite app_nil_r. exact HW.
  - cbn [forallb] in Hv. apply andb_prop in Hv. destruct Hv as [Hv1 Hv2].
    destruct (He v w bs Hv1 HW) as (w1 & E1 & W1). rewrite E1.
    destruct (IH w1 _ Hv2 W1) as (w2 & E2 & W2). exists w2. split; [exact E2|].
    rewrite zlen_app in W2. rewrite app_assoc. exact W2.
Qed.

Lemma ser_fields_enc fs : Forall (fun f => ser_ok (snd f)) fs -> Forall (fun f => wft (snd f) = true) fs ->
  forall vs w bs, valid_fields validb fs vs = true -> WR w bs ->
  exists w', ser_fields ser fs vs w = Ok w' /\ WR w' (bs ++ enc_fields enc fs vs (zlen bs)).
Proof.
  induction 1 as [|[nm t] r Ht Hr IH]; intros Hwf vs w bs Hv HW; cbn [ser_fields enc_fields valid_fields] in *.
  - destruct vs; [|discriminate]. eexists; split; [reflexivity|]. rewrite app_nil_r. exact HW.
  - inversion Hwf as [|? ? Hwt Hwr]; subst. cbn [snd] in Ht, Hwt.
    pose proof (w_align_to_WR w bs (align t) (align_pos t) HW) as W1.
    destruct nm as [nm|].
    + destruct vs as [|v vs']; [discriminate|]. apply andb_prop in Hv. destruct Hv as [Hv1 Hv2].
      destruct (Ht _ _ _ Hv1 W1) as (w2 & E2 & W2). rewrite E2.
      destruct (IH Hwr vs' w2 _ Hv2 W2) as (w3 & E3 & W3). exists w3. split; [exact E3|]. rewrite !zlen_app, <- !app_assoc in W3. exact W3.
    + pose proof (write_bits_WR _ _ 0 (void_width t) (void_width_nonneg t Hwt) W1) as W2.
      rewrite (low_bits_zero _ (void_width t) eq_refl) in W2.
      destruct (IH Hwr vs _ _ Hv W2) as (w3 & E3 & W3). exists w3. split; [exact E3|]. rewrite !zlen_app, <- !app_assoc in W3. rewrite zlen_app, <- app_assoc, Z.add_assoc. exact W3.
Qed.

Lemma ser_variant_enc fs : Forall (fun f => ser_ok (snd f)) fs ->
  forall k v w bs, valid_variant validb fs k v = true -> WR w bs ->
  exists w', ser_variant ser fs k v w = Ok w' /\ WR w' (bs ++ enc_variant enc fs k v (zlen bs)).
Proof.
  induction 1 as [|f r Hf Hr IH]; intros k v w bs Hv HW; cbn [ser_variant enc_variant valid_variant] in *; [discriminate|].
  destruct k as [|k]; [apply Hf; assumption|apply IH; assumption].
Qed.

Lemma Forall_fields_wft (P : ty -> Prop) fs :
  Forall (fun f => wft (snd f) = true -> P (snd f)) fs -> all_fields_ok wft fs = true -> Forall (fun f => P (snd f)) fs.
Proof. intros IH Hwf. apply fields_wft in Hwf. rewrite Forall_forall in *. auto. Qed.

Theorem ser_enc : forall t, wft t = true -> ser_ok t.
Proof.
  apply wft_ind.
  - intros p Hp v w bs Hv HW. apply ser_prim_enc; assumption.
  - intros wd Hwd v w bs _ HW. cbn [ser enc]. eexists; split; [reflexivity|].
    rewrite <- (low_bits_zero (Z.to_nat wd) wd eq_refl). apply write_bits_WR; [lia|assumption].
  - intros e n _ _ IHe v w bs Hv HW. cbn [validb] in Hv. cbn [ser enc]. destruct v; try discriminate.
    apply andb_prop in Hv. destruct Hv as [Hl Hvs]. rewrite Hl. apply ser_elems_enc; assumption.
  - intros e n _ _ _ IHe v w bs Hv HW. cbn [validb] in Hv. cbn [ser enc].
    destruct v; try discriminate. apply andb_prop in Hv. destruct Hv as [Hv Hu]. apply andb_prop in Hv. destruct Hv as [Hl Hvs].
    assert (U : is_utf8 e && negb match byte_values vs with Some bs0 => utf8_valid bs0 | None => false end = false).
    { destruct (is_utf8 e); [|reflexivity]. rewrite Hu. reflexivity. }
    rewrite U, Hl. pose proof (prefix_width_nonneg (align e) n (align_pos e)) as Hp.
    pose proof (write_bits_WR w bs (zlen vs) (prefix_width (align e) n) Hp HW) as W1.
    destruct (ser_elems_enc e IHe vs _ _ Hvs W1) as (w2 & E2 & W2). exists w2. split; [exact E2|].
    rewrite zlen_app, zlen_low_bits, <- app_assoc, Z2Nat.id in W2 by exact Hp. exact W2.
  - intros nm fs Wfs IHfs v w bs Hv HW. cbn [validb] in Hv. cbn [ser enc]. destruct v; try discriminate.
    destruct (ser_fields_enc fs IHfs Wfs vs w bs Hv HW) as (w1 & E1 & W1). rewrite E1.
    eexists; split; [reflexivity|].
    pose proof (w_align_to_WR w1 _ _ (max_align_pos fs) W1) as W2. rewrite zlen_app, <- app_assoc in W2. exact W2.
  - intros nm fs _ _ _ IHfs v w bs Hv HW. cbn [validb] in Hv. cbn [ser enc].
    destruct v; try discriminate. apply andb_prop in Hv. destruct Hv as [Hk Hvv]. rewrite Hk.
    pose proof (union_tag_width_nonneg fs) as Htw.
    pose proof (write_bits_WR w bs k (union_tag_width fs) Htw HW) as W1.
    destruct (ser_variant_enc fs IHfs (Z.to_nat k) v _ _ Hvv W1) as (w2 & E2 & W2). rewrite E2.
    eexists; split; [reflexivity|].
    pose proof (w_align_to_WR w2 _ _ (max_align_pos fs) W2) as W3.
    rewrite !zlen_app, zlen_low_bits, <- !app_assoc, Z2Nat.id in W3 by exact Htw.
    rewrite zlen_app, zlen_low_bits, <- app_assoc, Z2Nat.id, Z.add_assoc by exact Htw. exact W3.
  - (* delimited: the inner object goes through a temporary writer *)
    intros i ext Wi A8 _ _ _ IHi v w bs Hv HW. cbn [validb] in Hv. cbn [ser enc].
    apply andb_prop in Hv. destruct Hv as [Hv Hfit].
    destruct (IHi v w_new [] Hv WR_new) as (wi & Ei & Wi'). rewrite Ei. cbn [app] in Wi'.
    change (zlen (@nil bool)) with 0 in Wi'.
    pose proof (enc_aligned i Wi v 0) as M8. rewrite A8 in M8.
    pose proof (WR_packs wi _ Wi' (M8 eq_refl)) as Pk.
    pose proof (packs_eq _ _ Pk) as Eb. destruct Pk as (Ob & Lb & _).
    eexists; split; [reflexivity|].
    pose proof (write_bits_WR w bs (zlen (w_finish wi)) (header_width (align i)) (header_width_nonneg _) HW) as W1.
    pose proof (write_bytes_WR (w_finish wi) _ _ W1) as W2. rewrite Eb, <- app_assoc in W2.
    rewrite <- Lb, Z.mul_comm, Z.div_mul by discriminate. exact W2.
Qed.
