(* Lemmas on bits of integers, bytes and bit lists.
   Position j of a byte string is bit (j mod 8) of byte (j / 8); the steps that are plain division arithmetic say so
   by calling [Z.to_euclidean_division_equations] before [lia]. *)
From Coq Require Import ZArith List Bool Lia ZifyBool.
From PV Require Import Serdes.Model Serdes.Bits.
Import ListNotations.
Open Scope Z_scope.

(* ZifyBool sets this hook to a case split on every boolean in sight before each [lia], which no proof of the codec needs.
   The reset acts on every file that requires this one, that is on all of Serdes. *)
Ltac Zify.zify_post_hook ::= idtac.

Lemma zlen_nonneg {A} (l : list A) : 0 <= zlen l.
Proof. unfold zlen. lia. Qed.
Lemma zlen_nil {A} : zlen (@nil A) = 0. Proof. reflexivity. Qed.
Lemma zlen_cons {A} (x : A) l : zlen (x :: l) = 1 + zlen l.
Proof. unfold zlen. simpl length. lia. Qed.
Lemma zlen_app {A} (l m : list A) : zlen (l ++ m) = zlen l + zlen m.
Proof. unfold zlen. rewrite app_length. lia. Qed.
Lemma zlen_repeat {A} (x : A) n : zlen (repeat x n) = Z.of_nat n.
Proof. unfold zlen. rewrite repeat_length. reflexivity. Qed.
Lemma zlen_zeros n : 0 <= n -> zlen (zeros n) = n.
Proof. intros. unfold zeros. rewrite zlen_repeat. lia. Qed.
Lemma zlen_zero_bits n : 0 <= n -> zlen (zero_bits n) = n.
Proof. intros. unfold zero_bits. rewrite zlen_repeat. lia. Qed.
Lemma zlen_map {A B} (f : A -> B) l : zlen (map f l) = zlen l.
Proof. unfold zlen. rewrite map_length. reflexivity. Qed.
Lemma zlen_low_bits n v : zlen (low_bits n v) = Z.of_nat n.
Proof. unfold low_bits. rewrite zlen_map. unfold zlen. rewrite seq_length. reflexivity. Qed.

Lemma bit_at_beyond bs j : zlen bs <= j -> bit_at bs j = false.
Proof. intros H. unfold bit_at. apply nth_overflow. unfold zlen in H. lia. Qed.

Lemma bit_at_app bs cs j : 0 <= j -> bit_at (bs ++ cs) j = if j <? zlen bs then bit_at bs j else bit_at cs (j - zlen bs).
Proof.
  intros H. unfold bit_at, zlen. destruct (j <? Z.of_nat (length bs)) eqn:E.
  - apply app_nth1. lia.
  - rewrite app_nth2 by lia. f_equal. lia.
Qed.

Lemma bit_at_low_bits n v j : 0 <= j -> bit_at (low_bits n v) j = (j <? Z.of_nat n) && Z.testbit v j.
Proof.
  intros H. unfold bit_at, low_bits. destruct (j <? Z.of_nat n) eqn:E; simpl.
  - rewrite (nth_indep _ false ((fun k => Z.testbit v (Z.of_nat k)) 0%nat)) by (rewrite map_length, seq_length; lia).
    rewrite (map_nth (fun k => Z.testbit v (Z.of_nat k))). rewrite seq_nth by lia. f_equal. lia.
  - apply nth_overflow. rewrite map_length, seq_length. lia.
Qed.

Lemma bit_at_zero_bits n j : bit_at (zero_bits n) j = false.
Proof. apply nth_repeat. Qed.

Lemma bits_ext (a b : list bool) : zlen a = zlen b -> (forall j, 0 <= j < zlen a -> bit_at a j = bit_at b j) -> a = b.
Proof.
  intros L H. apply (nth_ext _ _ false false). { unfold zlen in L. lia. }
  intros n Hn. specialize (H (Z.of_nat n)). unfold bit_at in H. rewrite Nat2Z.id in H. apply H. unfold zlen. lia.
Qed.

Lemma testbit_1 m : Z.testbit 1 m = (m =? 0).
Proof. destruct m; reflexivity. Qed.

Lemma testbit_b2z b m : Z.testbit (Z.b2z b) m = b && (m =? 0).
Proof. destruct b; [apply testbit_1|apply Z.bits_0]. Qed.

Lemma bits_above n v i : 0 <= v < 2 ^ n -> 0 <= n <= i -> Z.testbit v i = false.
Proof.
  intros Hv Hi. rewrite <- (Z.mod_small v (2 ^ n)) by lia. apply Z.mod_pow2_bits_high. lia.
Qed.

Lemma bounded_by_bits n v : 0 <= n -> (forall i, n <= i -> Z.testbit v i = false) -> v < 2 ^ n.
Proof.
  intros Hn H. destruct (Z.lt_ge_cases v (2 ^ n)) as [|G]; [assumption|].
  assert (P : 0 < v) by (pose proof (Z.pow_pos_nonneg 2 n); lia).
  rewrite (Z.log2_le_pow2 v n P) in G. pose proof (Z.bit_log2 v P) as B. rewrite (H _ G) in B. discriminate.
Qed.

Lemma byte_ok_bits b : byte_ok b <-> 0 <= b /\ forall i, 8 <= i -> Z.testbit b i = false.
Proof.
  unfold byte_ok. change 256 with (2 ^ 8). split.
  - intros H. split; [lia|]. intros i Hi. apply (bits_above 8); lia.
  - intros [H0 H]. split; [lia|]. apply bounded_by_bits; [lia|exact H].
Qed.

(* setting or clearing bit k, as the writer's bit-wise loop does *)
Lemma testbit_put x k (b : bool) i : 0 <= i ->
  Z.testbit (if b then Z.lor x (Z.shiftl 1 k) else Z.land x (Z.lnot (Z.shiftl 1 k))) i = if i =? k then b else Z.testbit x i.
Proof.
  intros Hi. destruct b; [rewrite Z.lor_spec|rewrite Z.land_spec, Z.lnot_spec by assumption];
    rewrite Z.shiftl_spec, testbit_1 by assumption; replace (i - k =? 0) with (i =? k) by lia; destruct (i =? k); cbn [negb].
  - apply orb_true_r.
  - apply orb_false_r.
  - apply andb_false_r.
  - apply andb_true_r.
Qed.

Lemma set_byte_ok x k (b : bool) : byte_ok x -> 0 <= k < 8 ->
  byte_ok (if b then Z.lor x (Z.shiftl 1 k) else Z.land x (Z.lnot (Z.shiftl 1 k))).
Proof.
  intros Hx Hk. apply byte_ok_bits in Hx. destruct Hx as [H0 Hh]. apply byte_ok_bits. split.
  - destruct b; [apply Z.lor_nonneg; split; [assumption|apply Z.shiftl_nonneg; lia]|apply Z.land_nonneg; left; assumption].
  - intros i Hi. rewrite testbit_put by lia. replace (i =? k) with false by lia. apply Hh. assumption.
Qed.

Lemma testbit_add_byte b x j : byte_ok b -> Z.testbit (b + 256 * x) j = if j <? 8 then Z.testbit b j else Z.testbit x (j - 8).
Proof.
  intros Hb. unfold byte_ok in Hb. change 256 with (2 ^ 8). destruct (j <? 8) eqn:E.
  - rewrite <- (Z.mod_pow2_bits_low (b + 2 ^ 8 * x) 8 j) by lia. rewrite Z.mul_comm, Z_mod_plus_full, Z.mod_small by assumption. reflexivity.
  - replace j with ((j - 8) + 8) at 1 by lia. rewrite <- Z.div_pow2_bits by lia.
    rewrite Z.mul_comm, Z_div_plus_full, Z.div_small by (try assumption; discriminate). reflexivity.
Qed.

Lemma land_1 x : Z.land x 1 = Z.b2z (Z.testbit x 0).
Proof. change 1 with (Z.ones 1). rewrite Z.land_ones by lia. change (2 ^ 1) with 2. rewrite Z.bit0_mod. reflexivity. Qed.

Lemma shiftl_1 k : 0 <= k -> Z.shiftl 1 k = 2 ^ k.
Proof. intros. rewrite Z.shiftl_mul_pow2 by lia. lia. Qed.

Lemma land_mask v k : 0 <= k -> Z.land v (Z.shiftl 1 k - 1) = v mod 2 ^ k.
Proof. intros Hk. rewrite shiftl_1, Z.sub_1_r, <- Z.ones_equiv by assumption. apply Z.land_ones. assumption. Qed.

(* [v] is the [n]-bit number whose bit k is [g k]: the form in which the reader's loops and its byte-wise path compose *)
Definition nbits (v n : Z) (g : Z -> bool) : Prop := 0 <= v /\ forall k, 0 <= k -> Z.testbit v k = (k <? n) && g k.

Lemma nbits_range v n g : 0 <= n -> nbits v n g -> 0 <= v < 2 ^ n.
Proof.
  intros Hn [H0 H]. split; [assumption|]. apply bounded_by_bits; [assumption|]. intros i Hi. rewrite H by lia.
  replace (i <? n) with false by lia. reflexivity.
Qed.

Lemma nbits_bit v n g k : nbits v n g -> 0 <= k < n -> Z.testbit v k = g k.
Proof. intros [_ H] Hk. rewrite H by lia. replace (k <? n) with true by lia. reflexivity. Qed.

Lemma nbits_0 g : nbits 0 0 g.
Proof. split; [lia|]. intros k Hk. rewrite Z.bits_0. replace (k <? 0) with false by lia. reflexivity. Qed.

Lemma nbits_ext v n g h : (forall k, 0 <= k < n -> g k = h k) -> nbits v n g -> nbits v n h.
Proof.
  intros E [H0 H]. split; [assumption|]. intros k Hk. rewrite H by assumption.
  destruct (k <? n) eqn:C; [|reflexivity]. cbn [andb]. apply E. lia.
Qed.

Lemma nbits_b2z b g : g 0 = b -> nbits (Z.b2z b) 1 g.
Proof.
  intros <-. split; [destruct (g 0); cbn; lia|]. intros k Hk. rewrite testbit_b2z. destruct (Z.eq_dec k 0) as [->|N].
  - apply andb_true_r.
  - replace (k =? 0) with false by lia. replace (k <? 1) with false by lia. apply andb_false_r.
Qed.

Lemma nbits_lor lo hi a b g : 0 <= b -> nbits lo a g -> nbits hi b (fun k => g (a + k)) ->
  nbits (Z.lor lo (Z.shiftl hi a)) (a + b) g.
Proof.
  intros Hb [L0 L] [H0 H]. split. { apply Z.lor_nonneg. split; [assumption|]. apply Z.shiftl_nonneg. assumption. }
  intros k Hk. rewrite Z.lor_spec, Z.shiftl_spec, L by assumption. destruct (k <? a) eqn:C.
  - rewrite Z.testbit_neg_r by lia. replace (k <? a + b) with true by lia. apply orb_false_r.
  - rewrite H by lia. replace (a + (k - a)) with k by lia. cbn [andb orb]. f_equal. lia.
Qed.

Lemma low_bits_ext n a b : (forall j, 0 <= j < Z.of_nat n -> Z.testbit a j = Z.testbit b j) -> low_bits n a = low_bits n b.
Proof.
  intros H. apply bits_ext. { rewrite !zlen_low_bits. reflexivity. }
  rewrite zlen_low_bits. intros j Hj. rewrite !bit_at_low_bits by lia. f_equal. apply H. assumption.
Qed.

Lemma low_bits_mod n w z : Z.of_nat n = w -> low_bits n (z mod 2 ^ w) = low_bits n z.
Proof. intros E. apply low_bits_ext. intros j Hj. apply Z.mod_pow2_bits_low. lia. Qed.

Lemma low_bits_land n w z : Z.of_nat n = w -> low_bits n (Z.land z (Z.shiftl 1 w - 1)) = low_bits n z.
Proof. intros E. rewrite land_mask by lia. apply low_bits_mod. assumption. Qed.

Lemma low_bits_0 n : low_bits n 0 = repeat false n.
Proof.
  apply bits_ext. { rewrite zlen_low_bits, zlen_repeat. reflexivity. }
  intros j Hj. rewrite zlen_low_bits in Hj. rewrite bit_at_low_bits by lia. rewrite Z.bits_0, andb_false_r.
  symmetry. apply nth_repeat.
Qed.

Lemma low_bits_zero n w : Z.to_nat w = n -> low_bits n 0 = zero_bits w.
Proof. intros E. rewrite low_bits_0. unfold zero_bits. rewrite E. reflexivity. Qed.

Lemma low_bits_split a b x : low_bits (a + b) x = low_bits a x ++ low_bits b (x / 2 ^ Z.of_nat a).
Proof.
  apply bits_ext. { rewrite zlen_app, !zlen_low_bits. lia. }
  rewrite zlen_low_bits. intros j Hj. rewrite bit_at_app, zlen_low_bits, !bit_at_low_bits by lia.
  replace (j <? Z.of_nat (a + b)) with true by lia. destruct (j <? Z.of_nat a) eqn:D; [reflexivity|].
  rewrite bit_at_low_bits, Z.div_pow2_bits by lia. replace (j - Z.of_nat a <? Z.of_nat b) with true by lia.
  cbn [andb]. f_equal. lia.
Qed.

Lemma low_bits_shiftr a b x : 0 <= a -> 0 <= b ->
  low_bits (Z.to_nat (a + b)) x = low_bits (Z.to_nat a) x ++ low_bits (Z.to_nat b) (Z.shiftr x a).
Proof. intros Ha Hb. rewrite Z2Nat.inj_add, low_bits_split, Z2Nat.id, Z.shiftr_div_pow2 by assumption. reflexivity. Qed.

Lemma pad_len_0 a o : 1 <= a -> o mod a = 0 -> pad_len a o = 0.
Proof. intros Ha H. unfold pad_len. rewrite Z.mod_opp_l_z by lia. reflexivity. Qed.

Lemma pad_len_nz a o : 1 <= a -> o mod a <> 0 -> pad_len a o = a - o mod a.
Proof. intros Ha H. unfold pad_len. rewrite Z.mod_opp_l_nz by lia. reflexivity. Qed.

Lemma pad_len_range a o : 1 <= a -> 0 <= pad_len a o < a.
Proof. intros. unfold pad_len. apply Z.mod_pos_bound. lia. Qed.

Lemma pad_len_aligned a o : 1 <= a -> (o + pad_len a o) mod a = 0.
Proof.
  intros Ha. unfold pad_len. rewrite Z.add_mod_idemp_r, Z.add_opp_diag_r by lia. apply Z.mod_0_l. lia.
Qed.

Lemma same_byte_bit j p : j / 8 = p / 8 -> (j mod 8 =? p mod 8) = (j =? p).
Proof. intros E. Z.to_euclidean_division_equations; lia. Qed.

Lemma getbit_cons x rest j : 0 <= j -> getbit (x :: rest) j = if j <? 8 then Z.testbit x j else getbit rest (j - 8).
Proof.
  intros H. unfold getbit. destruct (j <? 8) eqn:E.
  - rewrite Z.div_small, Z.mod_small by lia. reflexivity.
  - replace (Z.to_nat (j / 8)) with (S (Z.to_nat ((j - 8) / 8))) by (Z.to_euclidean_division_equations; lia).
    replace ((j - 8) mod 8) with (j mod 8) by (Z.to_euclidean_division_equations; lia). reflexivity.
Qed.

Lemma getbit_beyond buf j : 8 * zlen buf <= j -> getbit buf j = false.
Proof.
  intros H. unfold getbit. rewrite nth_overflow; [apply Z.bits_0|]. unfold zlen in H. Z.to_euclidean_division_equations; lia.
Qed.

Lemma getbit_app_l buf more j : 0 <= j < 8 * zlen buf -> getbit (buf ++ more) j = getbit buf j.
Proof. intros H. unfold getbit. rewrite app_nth1; [reflexivity|]. unfold zlen in H. Z.to_euclidean_division_equations; lia. Qed.

Lemma getbit_app_r buf more j : 8 * zlen buf <= j -> getbit (buf ++ more) j = getbit more (j - 8 * zlen buf).
Proof.
  intros H. unfold getbit, zlen in *. rewrite app_nth2 by (Z.to_euclidean_division_equations; lia).
  f_equal; [f_equal|]; Z.to_euclidean_division_equations; lia.
Qed.

Lemma getbit_zeros n j : getbit (zeros n) j = false.
Proof.
  unfold getbit, zeros. destruct (Nat.lt_ge_cases (Z.to_nat (j / 8)) (Z.to_nat n)).
  - rewrite nth_repeat. apply Z.testbit_0_l.
  - rewrite nth_overflow by (rewrite repeat_length; assumption). apply Z.testbit_0_l.
Qed.

Lemma getbit_app_zeros buf k j : getbit (buf ++ zeros k) j = getbit buf j.
Proof.
  unfold getbit. destruct (Nat.lt_ge_cases (Z.to_nat (j / 8)) (length buf)) as [L|L].
  - rewrite app_nth1 by assumption. reflexivity.
  - rewrite app_nth2, (nth_overflow buf) by assumption. unfold zeros. rewrite nth_repeat. reflexivity.
Qed.

Lemma nth_skipn {A} s : forall (l : list A) i d, nth i (skipn s l) d = nth (s + i) l d.
Proof. induction s as [|s IH]; intros [|x l] i d; simpl; auto. destruct i; reflexivity. Qed.

Lemma nth_firstn_lt {A} n : forall (l : list A) i d, (i < n)%nat -> nth i (firstn n l) d = nth i l d.
Proof. induction n as [|n IH]; intros [|x l] [|i] d H; simpl; auto; try lia. apply IH. lia. Qed.

Lemma getbit_skipn s l j : 0 <= j -> getbit (skipn s l) j = getbit l (8 * Z.of_nat s + j).
Proof.
  intros H. unfold getbit. rewrite nth_skipn. f_equal; [f_equal|]; Z.to_euclidean_division_equations; lia.
Qed.

Lemma getbit_firstn n l j : 0 <= j -> getbit (firstn n l) j = (j <? 8 * Z.of_nat n) && getbit l j.
Proof.
  intros H. unfold getbit. destruct (j <? 8 * Z.of_nat n) eqn:E.
  - rewrite nth_firstn_lt by (Z.to_euclidean_division_equations; lia). reflexivity.
  - rewrite nth_overflow; [apply Z.bits_0|]. rewrite firstn_length. Z.to_euclidean_division_equations; lia.
Qed.

Lemma bytes_ok_app a b : bytes_ok a -> bytes_ok b -> bytes_ok (a ++ b).
Proof. intros; apply Forall_app; auto. Qed.

Lemma bytes_ok_nth buf i : bytes_ok buf -> byte_ok (nth i buf 0).
Proof.
  intros H. destruct (Nat.lt_ge_cases i (length buf)).
  - apply (proj1 (Forall_forall _ _) H). apply nth_In. assumption.
  - rewrite nth_overflow by assumption. unfold byte_ok. lia.
Qed.

Lemma bytes_ok_skipn s : forall l, bytes_ok l -> bytes_ok (skipn s l).
Proof. induction s as [|s IH]; intros [|x l] H; simpl; auto. inversion H; subst. apply IH. assumption. Qed.

Lemma bytes_ok_firstn n : forall l, bytes_ok l -> bytes_ok (firstn n l).
Proof.
  induction n as [|n IH]; intros l H; [constructor|]. destruct l as [|x l]; [constructor|].
  cbn [firstn]. inversion H; subst. constructor; [assumption|]. apply IH. assumption.
Qed.

Lemma bytes_ok_zeros k : bytes_ok (zeros k).
Proof. apply Forall_forall. intros x Hx. apply repeat_spec in Hx. subst. unfold byte_ok. lia. Qed.

Lemma to_bytes_le_length n v : length (to_bytes_le n v) = n.
Proof. revert v. induction n; intros; simpl; auto. Qed.

Lemma zlen_to_bytes_le n v : zlen (to_bytes_le n v) = Z.of_nat n.
Proof. unfold zlen. rewrite to_bytes_le_length. reflexivity. Qed.

Lemma to_bytes_le_ok n : forall v, bytes_ok (to_bytes_le n v).
Proof.
  induction n as [|k IH]; intros v; cbn [to_bytes_le]; constructor; [|apply IH].
  apply Z.mod_pos_bound. reflexivity.
Qed.

Lemma getbit_to_bytes_le n : forall v j, 0 <= j < 8 * Z.of_nat n -> getbit (to_bytes_le n v) j = Z.testbit v j.
Proof.
  induction n as [|k IH]; intros v j H; [lia|]. cbn [to_bytes_le]. rewrite getbit_cons by lia. change 256 with (2 ^ 8).
  destruct (j <? 8) eqn:E.
  - apply Z.mod_pow2_bits_low. lia.
  - rewrite IH by lia. rewrite Z.div_pow2_bits by lia. f_equal. lia.
Qed.

Lemma from_bytes_le_nonneg bs : bytes_ok bs -> 0 <= from_bytes_le bs.
Proof. induction 1; cbn [from_bytes_le]; [lia|]. unfold byte_ok in *. lia. Qed.

Lemma testbit_from_bytes_le bs : bytes_ok bs -> forall j, 0 <= j -> Z.testbit (from_bytes_le bs) j = getbit bs j.
Proof.
  induction 1 as [|b r Hb Hr IH]; intros j Hj.
  - cbn [from_bytes_le]. rewrite Z.bits_0. symmetry. apply getbit_beyond. assumption.
  - cbn [from_bytes_le]. rewrite testbit_add_byte by assumption. rewrite getbit_cons by assumption.
    destruct (j <? 8) eqn:E; [reflexivity|]. apply IH. lia.
Qed.

Lemma from_bytes_le_bound bs : bytes_ok bs -> from_bytes_le bs < 2 ^ (8 * zlen bs).
Proof.
  intros H. pose proof (zlen_nonneg bs). apply bounded_by_bits; [lia|].
  intros i Hi. rewrite testbit_from_bytes_le by (auto; lia). apply getbit_beyond. assumption.
Qed.

Lemma from_to_bytes_le k : forall x, from_bytes_le (to_bytes_le k x) = x mod 2 ^ (8 * Z.of_nat k).
Proof.
  induction k as [|k IH]; intros x.
  - cbn. rewrite Z.mod_1_r. reflexivity.
  - cbn [to_bytes_le from_bytes_le]. rewrite IH. replace (8 * Z.of_nat (S k)) with (8 + 8 * Z.of_nat k) by lia.
    rewrite Z.pow_add_r by lia. change (2 ^ 8) with 256.
    rewrite (Z.rem_mul_r x 256 (2 ^ (8 * Z.of_nat k))); [reflexivity|lia|]. apply Z.pow_pos_nonneg; lia.
Qed.

Lemma update_nth_length n f l : length (update_nth n f l) = length l.
Proof. revert n. induction l; intros [|n]; simpl; auto. Qed.

Lemma nth_update_nth n f l i : (n < length l)%nat -> nth i (update_nth n f l) 0 = if Nat.eqb i n then f (nth n l 0) else nth i l 0.
Proof.
  revert n i. induction l as [|x r IH]; intros n i H; simpl in H; [lia|].
  destruct n as [|n]; destruct i as [|i]; simpl; auto. apply IH. lia.
Qed.

Lemma update_nth_ok n f l : bytes_ok l -> (forall x, byte_ok x -> byte_ok (f x)) -> bytes_ok (update_nth n f l).
Proof.
  intros H Hf. revert n. induction H as [|x r Hx Hr IH]; intros [|n]; cbn [update_nth]; try constructor; auto.
  apply IH.
Qed.

Lemma getbit_update_nth n f l j : 0 <= j -> (n < length l)%nat ->
  getbit (update_nth n f l) j = if j / 8 =? Z.of_nat n then Z.testbit (f (nth n l 0)) (j mod 8) else getbit l j.
Proof.
  intros Hj Hn. unfold getbit. rewrite nth_update_nth by assumption. pose proof (Z.div_pos j 8 Hj eq_refl).
  destruct (j / 8 =? Z.of_nat n) eqn:E.
  - apply Z.eqb_eq in E. rewrite E, Nat2Z.id, Nat.eqb_refl. reflexivity.
  - replace (Z.to_nat (j / 8) =? n)%nat with false by lia. reflexivity.
Qed.

Lemma bytes_ext a b : bytes_ok a -> bytes_ok b -> zlen a = zlen b -> (forall j, 0 <= j -> getbit a j = getbit b j) -> a = b.
Proof.
  intros Ha Hb L H. apply (nth_ext _ _ 0 0). { unfold zlen in L. lia. }
  intros n Hn. apply Z.bits_inj'. intros i Hi. destruct (Z.lt_ge_cases i 8).
  - specialize (H (8 * Z.of_nat n + i) ltac:(lia)). unfold getbit in H.
    replace ((8 * Z.of_nat n + i) / 8) with (Z.of_nat n) in H by (Z.to_euclidean_division_equations; lia).
    replace ((8 * Z.of_nat n + i) mod 8) with i in H by (Z.to_euclidean_division_equations; lia). rewrite Nat2Z.id in H. exact H.
  - pose proof (bytes_ok_nth a n Ha) as A. pose proof (bytes_ok_nth b n Hb) as B.
    apply byte_ok_bits in A. apply byte_ok_bits in B. rewrite (proj2 A), (proj2 B) by lia. reflexivity.
Qed.

Lemma packs_unique b1 b2 bs : packs b1 bs -> packs b2 bs -> b1 = b2.
Proof.
  intros (A1 & L1 & H1) (A2 & L2 & H2). apply bytes_ext; auto; [lia|]. intros j Hj. rewrite H1, H2 by assumption. reflexivity.
Qed.

Lemma zlen_pad a o : 1 <= a -> zlen (zero_bits (pad_len a o)) = pad_len a o.
Proof. intros. apply zlen_zero_bits. apply pad_len_range. assumption. Qed.

Lemma zlen_low_bits_Z n x : 0 <= n -> zlen (low_bits (Z.to_nat n) x) = n.
Proof. intros. rewrite zlen_low_bits. apply Z2Nat.id. assumption. Qed.

Lemma div8_mul8 x : x mod 8 = 0 -> x / 8 * 8 = x.
Proof. intros H. rewrite Z.mul_comm. symmetry. apply Z_div_exact_full_2; [lia|exact H]. Qed.
