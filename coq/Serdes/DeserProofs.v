(* The bit reader as the decoder uses it.  [ahead r bits]: reader r, in good state, has the given bits in front of it,
   inside its window.  Reading a field, aligning and entering a bounded sub-reader move such a reader along the bits;
   the decoder proofs are stated over this one notion.  Also: primitives decode what [enc_prim] wrote, and what
   [wft] / [serializable] say about the components of a type. *)
From Coq Require Import ZArith List Bool Lia ZifyBool.
From PV Require Import Layout.Types Layout.Proofs Layout.ProofsSpec.
From PV Require Import Serdes.FloatProofs Serdes.Model Serdes.Bits Serdes.BitsProofs Serdes.ReaderProofs Serdes.Spec
  Serdes.SerProofs.
Import ListNotations.
Open Scope Z_scope.

Definition rend (r : reader) : Z := match rlimit r with Some l => rstart r + l | None => 8 * zlen (rdata r) end.
Definition rok (r : reader) : Prop := bytes_ok (rdata r) /\ 0 <= roff r.
Definition sees (r : reader) (bits : list bool) : Prop :=
  forall j, 0 <= j < zlen bits -> rbit r (roff r + j) = bit_at bits j.

Lemma rend_adv r n : rend (r_adv r n) = rend r.
Proof. reflexivity. Qed.

Lemma rok_adv r n : rok r -> 0 <= n -> rok (r_adv r n).
Proof. intros [A B] H. split; [exact A|]. unfold r_adv; cbn [roff]. lia. Qed.

(* [zlen []] is 0 only up to conversion, which [rewrite r_adv_0] does not see *)
Lemma r_adv_nil r : r_adv r (zlen (@nil bool)) = r.
Proof. apply r_adv_0. Qed.

Lemma r_adv_app r (a b : list bool) : r_adv r (zlen (a ++ b)) = r_adv (r_adv r (zlen a)) (zlen b).
Proof. rewrite zlen_app, r_adv_adv. reflexivity. Qed.

Lemma sees_app r a b : sees r (a ++ b) -> sees r a /\ sees (r_adv r (zlen a)) b.
Proof.
  intros H. pose proof (zlen_nonneg a). pose proof (zlen_nonneg b). split; intros j Hj.
  - rewrite H by (rewrite zlen_app; lia). rewrite bit_at_app by lia. replace (j <? zlen a) with true by lia. reflexivity.
  - rewrite rbit_adv, roff_adv. replace (roff r + zlen a + j) with (roff r + (zlen a + j)) by lia.
    rewrite H by (rewrite zlen_app; lia). rewrite bit_at_app by lia. replace (zlen a + j <? zlen a) with false by lia.
    f_equal. lia.
Qed.

Lemma within_below_rend r j : j < rend r -> within r j = true.
Proof. unfold within, rend. destruct (rlimit r); intros; lia. Qed.

Lemma remaining_rend r : remaining_bits r = Z.max 0 (rend r - roff r).
Proof. unfold remaining_bits, rend. destruct (rlimit r); lia. Qed.

Lemma read_bits_adv r n : rok r -> 0 <= n -> snd (read_bits r n) = r_adv r n.
Proof. intros [A B] Hn. apply (read_bits_spec r n A Hn B). Qed.

Definition ahead (r : reader) (bits : list bool) : Prop := rok r /\ sees r bits /\ roff r + zlen bits <= rend r.

Lemma ahead_prefix r a rest : rok r -> sees r (a ++ rest) -> roff r + zlen a <= rend r -> ahead r a.
Proof. intros Hr Hs Hw. split; [exact Hr|]. split; [apply (sees_app r a rest Hs)|exact Hw]. Qed.

Lemma ahead_app r a b : ahead r (a ++ b) -> ahead r a /\ ahead (r_adv r (zlen a)) b.
Proof.
  intros (Hr & Hs & Hw). rewrite zlen_app in Hw. pose proof (zlen_nonneg a). pose proof (zlen_nonneg b).
  destruct (sees_app r a b Hs) as [Sa Sb]. split.
  - split; [exact Hr|]. split; [exact Sa|lia].
  - split; [apply rok_adv; assumption|]. split; [exact Sb|]. rewrite rend_adv, roff_adv. lia.
Qed.

Lemma ahead_remaining r b : ahead r b -> (remaining_bits r <? zlen b) = false.
Proof. intros (_ & _ & Hw). rewrite remaining_rend. lia. Qed.

Lemma ahead_packs bytes extra bits : packs bytes bits -> bytes_ok extra -> ahead (r_new (bytes ++ extra)) bits.
Proof.
  intros (Ob & Lb & Gb) Oe. split; [|split].
  - split; [apply bytes_ok_app; assumption|]. cbn [roff r_new]. lia.
  - intros j Hj. unfold rbit, within. cbn [rlimit r_new rdata roff rstart andb]. replace (0 + j) with j by lia.
    rewrite getbit_app_l by lia. apply Gb. lia.
  - unfold rend. cbn [rlimit r_new rdata roff]. rewrite zlen_app. pose proof (zlen_nonneg extra). lia.
Qed.

Lemma read_value r n x : rok r -> 0 <= n ->
  (forall k, 0 <= k < n -> rbit r (roff r + k) = Z.testbit x k) -> read_bits r n = (x mod 2 ^ n, r_adv r n).
Proof.
  intros [Hd Ho] Hn H. destruct (read_bits_spec r n Hd Hn Ho) as (S1 & S2 & S3).
  rewrite (surjective_pairing (read_bits r n)). f_equal; [|exact S1].
  apply Z.bits_inj'. intros k Hk. destruct (Z.lt_ge_cases k n).
  - rewrite Z.mod_pow2_bits_low by lia. rewrite S3 by lia. apply H. lia.
  - rewrite Z.mod_pow2_bits_high by lia. apply (bits_above n); lia.
Qed.

Lemma read_ahead r n x b : 0 <= n -> ahead r (low_bits (Z.to_nat n) x ++ b) ->
  read_bits r n = (x mod 2 ^ n, r_adv r n) /\ ahead (r_adv r n) b.
Proof.
  intros Hn H. apply ahead_app in H. rewrite zlen_low_bits_Z in H by assumption. destruct H as [(Hr & Hs & _) Hb].
  split; [|exact Hb]. apply read_value; auto.
  intros k Hk. rewrite Hs by (rewrite zlen_low_bits_Z; assumption). rewrite bit_at_low_bits by lia.
  replace (k <? Z.of_nat (Z.to_nat n)) with true by lia. reflexivity.
Qed.

Lemma r_align_to_pad r a : 1 <= a -> r_align_to r a = r_adv r (zlen (zero_bits (pad_len a (roff r)))).
Proof. intros Ha. rewrite zlen_pad by assumption. apply r_align_to_adv. assumption. Qed.

Lemma roff_pad_aligned r a : 1 <= a -> roff (r_adv r (zlen (zero_bits (pad_len a (roff r))))) mod a = 0.
Proof. intros Ha. rewrite roff_adv, zlen_pad by assumption. apply pad_len_aligned. assumption. Qed.

Lemma read_void r n : rok r -> 0 <= n -> snd (read_bits r n) = r_adv r (zlen (zero_bits n)).
Proof. intros Hr Hn. rewrite zlen_zero_bits by assumption. apply read_bits_adv; assumption. Qed.

Lemma sub_beyond r n j : roff r + n <= j -> rbit (fst (bounded_subreader r n)) j = false.
Proof. intros H. unfold rbit, within. cbn [bounded_subreader fst rlimit rstart]. replace (j <? roff r + n) with false by lia. reflexivity. Qed.

Lemma ahead_sub r b : ahead r b -> ahead (fst (bounded_subreader r (zlen b))) b.
Proof.
  intros ((Hd & Ho) & Hs & Hw). cbn [bounded_subreader fst]. split; [split; assumption|]. split.
  - intros j Hj. rewrite <- (Hs j Hj). unfold rbit, within. cbn [rlimit rstart roff rdata].
    replace (roff r + j <? roff r + zlen b) with true by lia. fold (within r (roff r + j)).
    rewrite within_below_rend by lia. reflexivity.
  - unfold rend. cbn [rlimit rstart roff]. lia.
Qed.

Lemma read_bytes_spec k : forall r x b, ahead r (low_bits (8 * k) x ++ b) ->
  read_bytes k r = (to_bytes_le k x, r_adv r (8 * Z.of_nat k)).
Proof.
  induction k as [|k IH]; intros r x b Hs; cbn [read_bytes to_bytes_le].
  - rewrite r_adv_0. reflexivity.
  - replace (8 * S k)%nat with (8 + 8 * k)%nat in Hs by lia. rewrite low_bits_split, <- app_assoc in Hs.
    destruct (read_ahead r 8 x _ ltac:(lia) Hs) as [E Hs']. rewrite E. change (2 ^ Z.of_nat 8) with 256 in Hs'.
    rewrite (IH _ _ _ Hs'). change (2 ^ 8) with 256. rewrite r_adv_adv. f_equal. f_equal. lia.
Qed.

(* two's complement: the reader's sign correction undoes the reduction modulo 2^w *)
Lemma signed_decode w c : 1 <= w -> - 2 ^ (w - 1) <= c < 2 ^ (w - 1) ->
  (if 2 ^ (w - 1) <=? c mod 2 ^ w then c mod 2 ^ w - 2 ^ w else c mod 2 ^ w) = c.
Proof.
  intros Hw R. pose proof (Z.pow_succ_r 2 (w - 1) ltac:(lia)) as D. replace (Z.succ (w - 1)) with w in D by lia. destruct (Z.lt_ge_cases c 0).
  - replace (c mod 2 ^ w) with (c + 2 ^ w) by (apply Z.mod_unique with (q := -1); lia).
    replace (2 ^ (w - 1) <=? c + 2 ^ w) with true by lia. lia.
  - rewrite Z.mod_small by lia. replace (2 ^ (w - 1) <=? c) with false by lia. reflexivity.
Qed.

Lemma cast_int_range p z : prim_ok p = true ->
  match p with
  | PSInt w => - 2 ^ (w - 1) <= cast_int p z < 2 ^ (w - 1)
  | PUInt _ _ | PByte | PUtf8 => 0 <= cast_int p z < 2 ^ prim_width p
  | _ => True
  end.
Proof.
  intros Hp. pose proof (prim_width_pos p Hp) as Hw.
  destruct p as [ | w c | w | w c | | ]; cbn [cast_int prim_width] in *; try exact I; try (apply Z.mod_pos_bound; reflexivity).
  - assert (0 < 2 ^ w) by (apply Z.pow_pos_nonneg; lia). destruct c; [unfold clamp; lia|apply Z.mod_pos_bound; assumption].
  - simpl in Hp. assert (0 < 2 ^ (w - 1)) by (apply Z.pow_pos_nonneg; lia). unfold clamp. lia.
Qed.

Lemma read_int r w c b : 0 <= w -> ahead r (low_bits (Z.to_nat w) (c mod 2 ^ w) ++ b) ->
  read_bits r w = (c mod 2 ^ w, r_adv r w).
Proof. intros Hw H. rewrite (proj1 (read_ahead r w _ b Hw H)), Z.mod_mod; [reflexivity|]. apply Z.pow_nonzero; lia. Qed.

Lemma deser_prim_ok p v r : prim_ok p = true -> valid_prim p v = true -> ahead r (enc_prim p v) ->
  deser_prim p r = (canon_prim p v, r_adv r (zlen (enc_prim p v))).
Proof.
  intros Hp Hv Hs. pose proof (prim_width_pos p Hp) as Hw. rewrite <- (app_nil_r (enc_prim p v)) in Hs.
  destruct p as [ | w c | w | w c | | ]; unfold valid_prim in Hv; unfold deser_prim; unfold enc_prim, canon_prim in *; cbn [prim_width] in *.
  - destruct (bool_of v) as [b|]; [|discriminate].
    replace [b] with (low_bits (Z.to_nat 1) (Z.b2z b)) in Hs by (destruct b; reflexivity).
    rewrite (proj1 (read_ahead r 1 _ _ ltac:(lia) Hs)). destruct b; reflexivity.
  - destruct (as_int v) as [z|]; [|discriminate]. pose proof (cast_int_range (PUInt w c) z Hp) as R. cbn [prim_width] in R.
    rewrite (read_int r w _ _ ltac:(lia) Hs), zlen_low_bits_Z, Z.mod_small by lia. reflexivity.
  - destruct (as_int v) as [z|]; [|discriminate]. pose proof (cast_int_range (PSInt w) z Hp) as R. cbn [prim_width] in R. simpl in Hp.
    rewrite (read_int r w _ _ ltac:(lia) Hs), zlen_low_bits_Z, !shiftl_1, signed_decode by lia. reflexivity.
  - destruct v; try discriminate. simpl in Hp. assert (Hc : w = 16 \/ w = 32 \/ w = 64) by lia.
    assert (E8 : Z.to_nat w = (8 * Z.to_nat (w / 8))%nat /\ 8 * Z.of_nat (Z.to_nat (w / 8)) = w)
      by (destruct Hc as [ -> | [ -> | -> ] ]; split; reflexivity).
    destruct E8 as [E8 E8']. rewrite E8 in Hs. rewrite (read_bytes_spec _ r _ _ Hs), from_to_bytes_le, zlen_low_bits_Z, E8' by lia.
    rewrite Z.mod_small by apply (fcast_range c w bits Hc). reflexivity.
  - destruct (as_int v) as [z|]; [|discriminate]. pose proof (cast_int_range PByte z Hp) as R. cbn [prim_width] in R.
    rewrite (read_int r 8 _ _ ltac:(lia) Hs), zlen_low_bits_Z, Z.mod_small by lia. reflexivity.
  - destruct (as_int v) as [z|]; [|discriminate]. pose proof (cast_int_range PUtf8 z Hp) as R. cbn [prim_width] in R.
    rewrite (read_int r 8 _ _ ltac:(lia) Hs), zlen_low_bits_Z, Z.mod_small by lia. reflexivity.
Qed.

Lemma wft_fix e n : wft (TFix e n) = true -> wft e = true /\ 1 <= n.
Proof. cbn [wft]. rewrite andb_true_iff. intros [A B]. split; [exact A|lia]. Qed.

Lemma wft_var e n : wft (TVar e n) = true -> wft e = true /\ 1 <= n /\ bitlen n <= 64.
Proof. cbn [wft]. rewrite !andb_true_iff. intros [[A B] C]. split; [exact A|lia]. Qed.

Lemma wft_union nm fs : wft (TUnion nm fs) = true -> all_fields_ok wft fs = true /\ 2 <= zlen fs /\ bitlen (zlen fs - 1) <= 64.
Proof. cbn [wft]. rewrite !andb_true_iff. intros [[A B] C]. split; [exact A|unfold zlen; lia]. Qed.

Lemma wft_delim i ext : wft (TDelim i ext) = true ->
  wft i = true /\ (match i with TStruct _ _ | TUnion _ _ => true | _ => false end) = true /\ align i = 8 /\
  ext mod 8 = 0 /\ extent i <= ext.
Proof.
  cbn [wft]. rewrite !andb_true_iff. intros [[[A B] C] D].
  assert (A8 : align i = 8) by (destruct i; try discriminate; apply max_align_fields).
  rewrite A8 in C. repeat split; auto; lia.
Qed.

Lemma cap_lt_prefix e n : wft (TVar e n) = true -> n < 2 ^ prefix_width (align e) n.
Proof.
  intros H. destruct (wft_var e n H) as (_ & Hn & Hb).
  rewrite prefix_width_eq by lia. destruct (bitlen_spec n ltac:(lia)) as [[_ B] _].
  assert (2 ^ bitlen n <= 2 ^ 64) by (apply pow2_le; pose proof (bitlen_nonneg n); lia).
  apply spec_prefix_least. lia.
Qed.

Lemma variants_le_tag nm fs : wft (TUnion nm fs) = true -> zlen fs <= 2 ^ union_tag_width fs.
Proof.
  intros H. destruct (wft_union nm fs H) as (_ & Hn & Hb). unfold zlen in *. rewrite union_tag_eq by lia.
  assert (Z.of_nat (length fs) <= 2 ^ 64).
  { destruct (Z.eq_dec (Z.of_nat (length fs)) 2) as [E|E]; [rewrite E; lia|].
    destruct (bitlen_spec (Z.of_nat (length fs) - 1) ltac:(lia)) as [[_ B] _].
    assert (2 ^ bitlen (Z.of_nat (length fs) - 1) <= 2 ^ 64) by (apply pow2_le; pose proof (bitlen_nonneg (Z.of_nat (length fs) - 1)); lia).
    lia. }
  apply spec_tag_least. assumption.
Qed.

(* constructible, with void / byte / utf8 only where pydsdl allows them; a padding field's void type included *)
Definition tok (t : ty) : Prop := wft t = true /\ (serializable t = true \/ is_void t = true).

Lemma serializable_fields_struct fs f : struct_fields_ok serializable fs = true -> In f fs ->
  (fst f = None /\ is_void (snd f) = true) \/ (fst f <> None /\ serializable (snd f) = true).
Proof.
  unfold struct_fields_ok. rewrite forallb_forall. intros H Hin. specialize (H f Hin). destruct (fst f).
  - right. split; [discriminate|]. unfold named_field_ok in H. apply andb_prop in H. apply H.
  - left. auto.
Qed.

Lemma serializable_not_void t : serializable t = true -> is_void t = false.
Proof. destruct t; try reflexivity. discriminate. Qed.

Lemma Forall_mp_and {A} (P Q : A -> Prop) l : Forall (fun x => P x -> Q x) l -> Forall P l -> Forall (fun x => P x /\ Q x) l.
Proof. induction 1 as [|x l H _ IH]; intros HP; inversion HP; subst; constructor; auto. Qed.

Lemma tok_fix e n : tok (TFix e n) -> tok e /\ is_void e = false /\ is_utf8 e = false.
Proof.
  intros [W [S|S]]; [|discriminate]. cbn [serializable] in S. apply andb_prop in S. destruct S as [U S].
  split; [split; [apply (wft_fix e n W)|left; exact S]|]. split; [apply serializable_not_void; exact S|].
  destruct (is_utf8 e); [discriminate|reflexivity].
Qed.

Lemma tok_var e n : tok (TVar e n) -> tok e /\ is_void e = false.
Proof.
  intros [W [S|S]]; [|discriminate]. split; [split; [apply (wft_var e n W)|left; exact S]|apply serializable_not_void; exact S].
Qed.

Lemma tok_struct nm fs : tok (TStruct nm fs) -> Forall (fun f => tok (snd f)) fs.
Proof.
  intros [W [S|S]]; [|discriminate]. cbn [wft serializable] in *. apply Forall_forall. intros f Hf. split.
  - apply (proj1 (Forall_forall _ _) (fields_wft fs W) f Hf).
  - destruct (serializable_fields_struct fs f S Hf) as [[_ A]|[_ A]]; auto.
Qed.

Lemma tok_struct_void nm fs : tok (TStruct nm fs) ->
  Forall (fun f => is_void (snd f) = match fst f with None => true | Some _ => false end) fs.
Proof.
  intros [_ [S|S]]; [|discriminate]. cbn [serializable] in S. unfold struct_fields_ok in S. rewrite forallb_forall in S.
  apply Forall_forall. intros f Hf. specialize (S f Hf). destruct (fst f); [|exact S].
  unfold named_field_ok in S. rewrite !andb_true_iff, negb_true_iff in S. apply S.
Qed.

Lemma tok_union nm fs : tok (TUnion nm fs) -> Forall (fun f => tok (snd f) /\ is_void (snd f) = false) fs.
Proof.
  intros [W [S|S]]; [|discriminate]. cbn [serializable] in S. apply Forall_forall. intros f Hf.
  unfold union_fields_ok in S. rewrite forallb_forall in S. specialize (S f Hf). destruct (fst f); [|discriminate].
  unfold named_field_ok in S. rewrite !andb_true_iff, negb_true_iff in S. destruct S as [[V _] S]. split; [split|exact V].
  - apply (proj1 (Forall_forall _ _) (fields_wft fs (proj1 (wft_union nm fs W))) f Hf).
  - left. exact S.
Qed.

Lemma tok_delim i ext : tok (TDelim i ext) -> tok i /\ is_void i = false.
Proof.
  intros [W [S|S]]; [|discriminate]. split; [split; [apply (wft_delim i ext W)|left; exact S]|apply serializable_not_void; exact S].
Qed.

(* Induction over the types the codec handles.  Each case receives what [wft] and [serializable] say about the components
   (composites also [tok] of the whole type), and the numeric facts the codec proofs need: the widths of length prefix and tag are
   multiples of 8, a delimited type wraps a composite of alignment 8. *)
Lemma tok_ind (P : ty -> Prop) :
  (forall p, prim_ok p = true -> P (TPrim p)) ->
  (forall w, 1 <= w <= 64 -> P (TVoid w)) ->
  (forall e n, tok e -> is_void e = false -> is_utf8 e = false -> 1 <= n ->
     P e -> P (TFix e n)) ->
  (forall e n, tok e -> is_void e = false -> 1 <= n -> bitlen n <= 64 ->
     prefix_width (align e) n mod 8 = 0 -> 8 <= prefix_width (align e) n ->
     P e -> P (TVar e n)) ->
  (forall nm fs, tok (TStruct nm fs) ->
     Forall (fun f => is_void (snd f) = match fst f with None => true | Some _ => false end) fs ->
     Forall (fun f => tok (snd f) /\ P (snd f)) fs -> P (TStruct nm fs)) ->
  (forall nm fs, Forall (fun f => is_void (snd f) = false) fs ->
     2 <= zlen fs -> bitlen (zlen fs - 1) <= 64 -> union_tag_width fs mod 8 = 0 -> 8 <= union_tag_width fs ->
     Forall (fun f => tok (snd f) /\ P (snd f)) fs -> P (TUnion nm fs)) ->
  (forall i ext, tok (TDelim i ext) -> tok i -> is_void i = false ->
     (match i with TStruct _ _ | TUnion _ _ => true | _ => false end) = true -> align i = 8 ->
     P i -> P (TDelim i ext)) ->
  forall t, tok t -> P t.
Proof.
  intros HPrim HVoid HFix HVar HStruct HUnion HDelim.
  induction t as [p|w|e n IH|e n IH|nm fs IH|nm fs IH|i ext IH] using ty_ind'; intros Tk; pose proof Tk as [W _].
  - apply HPrim. exact W.
  - apply HVoid. cbn [wft] in W. lia.
  - destruct (tok_fix e n Tk) as (Te & V & U). apply HFix; auto. apply (wft_fix e n W).
  - destruct (tok_var e n Tk) as (Te & V). destruct (wft_var e n W) as (_ & Hn & Hb). destruct (prefix_width_mod8 e n W).
    apply HVar; auto.
  - apply HStruct; [exact Tk|exact (tok_struct_void nm fs Tk)|]. exact (Forall_mp_and _ _ fs IH (tok_struct nm fs Tk)).
  - pose proof (tok_union nm fs Tk) as Tf. destruct (wft_union nm fs W) as (_ & Hn & Hb). destruct (tag_width_mod8 nm fs W).
    apply HUnion; auto; [exact (Forall_impl _ (fun f H => proj2 H) Tf)|].
    exact (Forall_mp_and _ _ fs IH (Forall_impl _ (fun f H => proj1 H) Tf)).
  - destruct (tok_delim i ext Tk) as (Ti & V). destruct (wft_delim i ext W) as (_ & Hc & A8 & _). apply HDelim; auto.
Qed.
