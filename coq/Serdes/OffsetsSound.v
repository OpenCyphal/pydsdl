(* C08_sound_wrt_codec: the offsets computed by iterate_fields_with_offsets (Layout/Offsets.v) are sound for the codec
   (Serdes/Model.v): the bit position at which the serializer writes field i of a structure / the selected variant of
   a union / the fields of a delimited object is an element of the offset set of that field.

   The link to the codec is an instrumented copy of ser_fields that additionally records the writer's bit offset at the
   moment each field is written (after its alignment step); erasing the record gives ser_fields back ([tr_erase]). *)
From Coq Require Import ZArith List Lia ZifyBool.
From PV Require Import BLS.Model BLS.Den Layout.Types Layout.Spec Layout.Proofs Layout.ProofsSpec Layout.Offsets
  Layout.OffsetsProofs.
From PV Require Import Serdes.Model Serdes.Bits Serdes.BitsProofs Serdes.WriterProofs Serdes.Spec Serdes.SerProofs
  Serdes.DeserProofs Serdes.LenProofs.
Import ListNotations.
Open Scope Z_scope.

(* ser_fields with a record of the bit offset at which every field (padding fields included) starts *)
Fixpoint ser_fields_tr (fs : list (option str * ty)) (vs : list val) (w : writer) : res writer * list Z :=
  match fs with
  | [] => (match vs with [] => Ok w | _ => Err EShape end, [])
  | (None, t) :: r =>
      let w1 := w_align_to w (align t) in
      let (res, tr) := ser_fields_tr r vs (write_bits w1 0 (void_width t)) in (res, woff w1 :: tr)
  | (Some _, t) :: r =>
      match vs with
      | [] => (Err EShape, [])
      | v :: vs' =>
          let v' := match v with VOmit => default_value t | _ => v end in
          let w1 := w_align_to w (align t) in
          match ser t v' w1 with
          | Ok w2 => let (res, tr) := ser_fields_tr r vs' w2 in (res, woff w1 :: tr)
          | Err e => (Err e, [woff w1])
          end
      end
  end.

Lemma tr_erase fs : forall vs w, fst (ser_fields_tr fs vs w) = ser_fields ser fs vs w.
Proof.
  induction fs as [|[nm t] r IH]; intros vs w; cbn [ser_fields_tr ser_fields]; [reflexivity|]. destruct nm as [nm|].
  - destruct vs as [|v vs']; [reflexivity|].
    destruct (ser t match v with VOmit => default_value t | _ => v end (w_align_to w (align t))) as [w2|e]; [|reflexivity].
    specialize (IH vs' w2). destruct (ser_fields_tr r vs' w2). exact IH.
  - specialize (IH vs (write_bits (w_align_to w (align t)) 0 (void_width t))).
    destruct (ser_fields_tr r vs (write_bits (w_align_to w (align t)) 0 (void_width t))). exact IH.
Qed.

Lemma pad_shift8 a s z : a = 1 \/ a = 8 -> s mod 8 = 0 -> pad a (s + z) = s + pad a z.
Proof. intros [ -> | -> ] H; unfold pad; Z.to_euclidean_division_equations; lia. Qed.

Lemma WR_off w bs : WR w bs -> woff w = zlen bs.
Proof. intros [A _]. exact A. Qed.

(* every recorded start is the aligned end of a threading of the preceding fields with one of their LenSpec lengths;
   s is an additive shift (a multiple of 8) between the writer's own offsets and the positions of interest *)
Lemma tr_thread fs : Forall (fun f => len_ok (snd f)) fs -> all_fields_ok wft fs = true -> struct_fields_ok serializable fs = true ->
  forall vs w bs s, WR w bs -> s mod 8 = 0 -> valid_fields validb fs vs = true ->
  length (snd (ser_fields_tr fs vs w)) = length fs /\
  forall i x, nth_error (snd (ser_fields_tr fs vs w)) i = Some x ->
  exists f e, nth_error fs i = Some f /\ thread_ok LenSpec spec_align (firstn i fs) (s + zlen bs) e /\ s + x = pad (spec_align (snd f)) e.
Proof.
  induction 1 as [|[nm t] r Ht Hr IH]; intros Hwf Hsz vs w bs s HW Hs Hv; cbn [ser_fields_tr valid_fields] in *.
  - split; [reflexivity|]. intros i x H. destruct i; discriminate.
  - unfold all_fields_ok in Hwf. cbn [forallb snd] in Hwf. apply andb_prop in Hwf. destruct Hwf as [Hwt Hwr].
    unfold struct_fields_ok in Hsz. cbn [forallb fst snd] in Hsz. apply andb_prop in Hsz. destruct Hsz as [Hst Hsr].
    cbn [snd] in Ht. pose proof (align_pos t) as Hap. pose proof (align_values t) as Hav.
    pose proof (w_align_to_WR w bs (align t) Hap HW) as W1. set (p := zero_bits (pad_len (align t) (zlen bs))) in *.
    (* the field starts where the Specification's padding of the shifted position ends *)
    assert (Start : pad (spec_align t) (s + zlen bs) = s + zlen (bs ++ p)).
    { rewrite zlen_app. subst p.
      rewrite zlen_pad, <- (align_is_spec t Hwt), (pad_shift8 _ _ _ Hav Hs), (pad_pad_len _ _ Hav) by assumption. reflexivity. }
    destruct nm as [nm|].
    + destruct vs as [|v vs']; [discriminate|]. apply andb_prop in Hv. destruct Hv as [Hv1 Hv2].
      destruct (ser_enc t Hwt _ _ _ Hv1 W1) as (w2 & E2 & W2). rewrite E2. set (b := enc t _ (zlen (bs ++ p))) in *.
      assert (Lb : LenSpec t (zlen b)).
      { apply Ht; [assumption|]. rewrite zlen_app. subst p. rewrite zlen_pad by assumption. apply pad_len_aligned. assumption. }
      destruct (IH Hwr Hsr vs' w2 _ s W2 Hs Hv2) as [IL IN].
      destruct (ser_fields_tr r vs' w2) as [res tr]. cbn [snd] in *. split; [simpl; lia|].
      intros i x H. destruct i as [|j]; cbn [nth_error firstn thread_ok] in *.
      * inversion H; subst x. exists (Some nm, t), (s + zlen bs). cbn [snd]. rewrite (WR_off _ _ W1), Start. auto.
      * destruct (IN j x H) as (f & e & Hf & T & Hx). exists f, e. split; [exact Hf|]. split; [|exact Hx].
        exists (zlen b). cbn [snd]. split; [exact Lb|]. rewrite Start. rewrite (zlen_app (bs ++ p)), Z.add_assoc in T. exact T.
    + destruct t; try discriminate. cbn [void_width align] in *. simpl in Hwt.
      pose proof (write_bits_WR _ _ 0 w0 ltac:(lia) W1) as W2. rewrite (low_bits_zero _ w0 eq_refl) in W2.
      destruct (IH Hwr Hsr vs _ _ s W2 Hs Hv) as [IL IN].
      destruct (ser_fields_tr r vs (write_bits (w_align_to w 1) 0 w0)) as [res tr]. cbn [snd] in *. split; [simpl; lia|].
      intros i x H. destruct i as [|j]; cbn [nth_error firstn thread_ok] in *.
      * inversion H; subst x. exists (None, TVoid w0), (s + zlen bs). cbn [snd]. rewrite (WR_off _ _ W1), Start. auto.
      * destruct (IN j x H) as (f & e & Hf & T & Hx). exists f, e. split; [exact Hf|]. split; [|exact Hx].
        exists w0. cbn [snd LenSpec]. split; [reflexivity|]. rewrite Start.
        rewrite (zlen_app (bs ++ p)), (zlen_zero_bits w0), Z.add_assoc in T by lia. exact T.
Qed.

Lemma struct_len_oks fs : all_fields_ok wft fs = true -> struct_fields_ok serializable fs = true -> Forall (fun f => len_ok (snd f)) fs.
Proof. intros Hw Hs. apply (Forall_impl _ (fun f => enc_len_spec (snd f))), (tok_struct [] fs). split; [exact Hw|left; exact Hs]. Qed.

(* the enclosing composite / array / top level has brought the writer to the structure's alignment (8) before the
   structure is serialized: w_align_to w 8.  B is any set of base offsets that contains the writer's bit length. *)
Theorem struct_offsets_sound nm fs B vs w bs :
  wft (TStruct nm fs) = true -> serializable (TStruct nm fs) = true -> validb (TStruct nm fs) (VStruct vs) = true ->
  WR w bs -> Den B (zlen bs) ->
  let tr := snd (ser_fields_tr fs vs (w_align_to w 8)) in
  fst (ser_fields_tr fs vs (w_align_to w 8)) = ser_fields ser fs vs (w_align_to w 8) /\
  length tr = length fs /\
  forall i f O x, nth_error (field_offsets (TStruct nm fs) B) i = Some (f, O) -> nth_error tr i = Some x -> Den O x.
Proof.
  intros Hwf Hsz Hv HW HB tr. split; [apply tr_erase|].
  pose proof Hwf as Hwf0. cbn [wft serializable validb] in Hwf, Hsz, Hv.
  pose proof (w_align_to_WR w bs 8 ltac:(lia) HW) as W0.
  destruct (tr_thread fs (struct_len_oks fs Hwf Hsz) Hwf Hsz vs _ _ 0 W0 eq_refl Hv) as [L N]. split; [exact L|].
  intros i f O x HO Hx. destruct (struct_offsets_spec nm fs B Hwf0) as [_ Sp]. apply (Sp i f O HO x).
  destruct (N i x Hx) as (f' & e & Hf' & T & Ex). unfold StructOff. exists f', (zlen bs), e.
  rewrite zlen_app, zlen_pad in T by lia. rewrite <- (pad_pad_len 8 (zlen bs)) in T by auto. cbn [Z.add] in *.
  repeat split; auto.
Qed.

Theorem union_offsets_sound nm fs B k w bs f O :
  wft (TUnion nm fs) = true -> WR w bs -> Den B (zlen bs) -> In (f, O) (field_offsets (TUnion nm fs) B) ->
  (* the selected variant is written right after the tag *)
  Den O (woff (write_bits (w_align_to w 8) k (union_tag_width fs))).
Proof.
  intros Hwf HW HB Hin. destruct (union_offsets_spec nm fs B Hwf) as [_ Sp]. apply (Sp f O Hin). unfold UnionOff.
  exists (zlen bs). split; [assumption|]. rewrite write_bits_off, w_align_to_off by lia. rewrite (WR_off _ _ HW).
  rewrite (pad_pad_len 8 (zlen bs)) by auto. cbn [wft] in Hwf. apply andb_prop in Hwf. destruct Hwf as [Hwf Hb]. apply andb_prop in Hwf. destruct Hwf as [_ Hn].
  rewrite union_tag_eq by lia. reflexivity.
Qed.

(* the inner structure goes through a temporary writer (offsets from 0) and is copied right after the 32-bit header:
   inner field i ends up at (offset after the header) + (its offset in the temporary writer) *)
Theorem delim_offsets_sound nm fs ext B vs w bs :
  wft (TDelim (TStruct nm fs) ext) = true -> serializable (TStruct nm fs) = true -> validb (TStruct nm fs) (VStruct vs) = true ->
  WR w bs -> Den B (zlen bs) ->
  let after_header := woff (write_bits (w_align_to w 8) 0 (header_width (align (TStruct nm fs)))) in
  let tr := snd (ser_fields_tr fs vs w_new) in
  length tr = length fs /\
  forall i f O x, nth_error (field_offsets (TDelim (TStruct nm fs) ext) B) i = Some (f, O) -> nth_error tr i = Some x -> Den O (after_header + x).
Proof.
  intros Hwf Hsz Hv HW HB after_header tr.
  pose proof (proj1 (wft_delim _ _ Hwf)) as Hwi.
  assert (Eah : after_header = pad 8 (zlen bs) + 32).
  { subst after_header. rewrite write_bits_off, w_align_to_off by lia. rewrite (WR_off _ _ HW). rewrite (pad_pad_len 8 (zlen bs)) by auto.
    cbn [align]. rewrite max_align_fields. reflexivity. }
  pose proof Hwi as Hwi0. cbn [wft serializable validb] in Hwi, Hsz, Hv.
  assert (S8 : after_header mod 8 = 0). { rewrite Eah. apply mod8_add; [apply Z.mod_mul; lia|reflexivity]. }
  destruct (tr_thread fs (struct_len_oks fs Hwi Hsz) Hwi Hsz vs w_new [] after_header WR_new S8 Hv) as [L N]. split; [exact L|].
  intros i f O x HO Hx. destruct (delim_offsets_spec (TStruct nm fs) ext B Hwf) as [E _]. rewrite E in HO.
  destruct (struct_offsets_spec nm fs (Cat [B; Leaf [32]]) Hwi0) as [_ Sp]. apply (Sp i f O HO). unfold StructOff.
  destruct (N i x Hx) as (f' & e & Hf' & T & Ex). exists f', (zlen bs + 32), e. change (zlen (@nil bool)) with 0 in T. rewrite Z.add_0_r in T.
  assert (Ep : pad 8 (zlen bs + 32) = after_header). { rewrite Eah, (Z.add_comm (zlen bs)), (pad_shift8 8 32) by auto. lia. }
  rewrite Ep. repeat split; auto.
  apply Den_cat2. exists (zlen bs), 32. repeat split; auto. apply Den_leaf1. reflexivity.
Qed.
