(* Top-level statements about pydsdl.serialize / pydsdl.deserialize of the model.  Both work on [payload_type t hdr]:
   the type itself, or the inner type of a delimited type written without its header.  The round trip is cross-revision
   decoding (EvolveProofs.evolve_deser) at t' = t, where [conv] is the identity (conv_refl). *)
From Coq Require Import ZArith List Lia ZifyBool.
From PV Require Import Layout.Types Layout.Proofs Layout.ProofsSpec.
From PV Require Import Serdes.Model Serdes.Bits Serdes.BitsProofs Serdes.WriterProofs Serdes.Spec Serdes.SerProofs
  Serdes.DeserProofs Serdes.Evolve Serdes.ProofsLayout Serdes.EvolveProofs.
Import ListNotations.
Open Scope Z_scope.

(* the header flag may only be given for a delimited type *)
Definition hdr_ok (t : ty) (hdr : bool) : bool := match t with TDelim _ _ => true | _ => negb hdr end.

Lemma is_composite_cases t : is_composite t = true ->
  (exists nm fs, t = TStruct nm fs) \/ (exists nm fs, t = TUnion nm fs) \/ (exists i ext, t = TDelim i ext).
Proof. destruct t; try discriminate; intros _; eauto 6. Qed.

Lemma spec_enc_payload t v hdr : spec_enc t v hdr = enc (payload_type t hdr) v 0.
Proof. destruct t; try reflexivity. destruct hdr; reflexivity. Qed.

Lemma serialize_payload t v hdr : hdr_ok t hdr = true ->
  serialize t v hdr = match ser (payload_type t hdr) v w_new with Ok w => Ok (w_finish w) | Err e => Err e end.
Proof. destruct t; cbn [hdr_ok serialize payload_type]; destruct hdr; try discriminate; reflexivity. Qed.

Lemma deserialize_payload t data hdr : hdr_ok t hdr = true ->
  deserialize t data hdr = match deser (payload_type t hdr) (r_new data) with Ok (v, _) => Ok v | Err e => Err e end.
Proof. destruct t; cbn [hdr_ok deserialize payload_type]; destruct hdr; try discriminate; reflexivity. Qed.

Lemma wft_payload t hdr : wft t = true -> wft (payload_type t hdr) = true.
Proof. intros H. destruct t; try exact H. destruct hdr; [exact H|apply (wft_delim _ _ H)]. Qed.

Lemma deserialize_bad_hdr t d hdr : hdr_ok t hdr = false -> deserialize t d hdr = Err EValue.
Proof. destruct t, hdr; try discriminate; reflexivity. Qed.

Lemma payload_wft t hdr : wft t = true -> is_composite t = true ->
  wft (payload_type t hdr) = true /\ is_composite (payload_type t hdr) = true.
Proof.
  intros Hwf Hc. destruct t; try discriminate; auto. destruct hdr; cbn [payload_type]; auto.
  destruct (wft_delim _ _ Hwf) as (Hwi & Hci & _). split; [exact Hwi|]. destruct t; try discriminate; reflexivity.
Qed.

Lemma payload_serializable t hdr : serializable t = true -> serializable (payload_type t hdr) = true.
Proof. destruct t; auto. destruct hdr; auto. Qed.

Lemma payload_tok t hdr : wft t = true -> serializable t = true -> is_composite t = true -> tok (payload_type t hdr).
Proof. intros Hwf Hsz Hc. split; [apply (payload_wft t hdr Hwf Hc)|left; apply payload_serializable; exact Hsz]. Qed.

Lemma payload_valid t hdr v : validb t v = true -> validb (payload_type t hdr) v = true.
Proof. destruct t; auto. destruct hdr; auto. cbn [validb payload_type]. intros H. apply andb_prop in H. apply H. Qed.

Lemma payload_canon t hdr v : canon (payload_type t hdr) v = canon t v.
Proof. destruct t; try reflexivity. destruct hdr; reflexivity. Qed.

Lemma enc_top_mod8 t v : wft t = true -> is_composite t = true -> zlen (enc t v 0) mod 8 = 0.
Proof.
  intros Hwf Hc. destruct t; try discriminate; try (apply enc_composite_mod8; reflexivity).
  destruct (wft_delim _ _ Hwf) as (_ & Hci & _). cbn [enc]. rewrite zlen_app, zlen_low_bits, (header_width_delim t Hci).
  apply (mod8_add 32); [reflexivity|]. apply enc_composite_mod8. exact Hci.
Qed.

Lemma spec_enc_mod8 t v hdr : wft t = true -> is_composite t = true -> zlen (spec_enc t v hdr) mod 8 = 0.
Proof. intros Hwf Hc. rewrite spec_enc_payload. apply enc_top_mod8; apply (payload_wft t hdr Hwf Hc). Qed.

(* C06_wire_spec *)
Theorem serialize_spec t v hdr : wft t = true -> is_composite t = true -> hdr_ok t hdr = true -> validb t v = true ->
  exists bytes, serialize t v hdr = Ok bytes /\ packs bytes (spec_enc t v hdr).
Proof.
  intros Hwf Hc Hh Hv. pose proof (spec_enc_mod8 t v hdr Hwf Hc) as M8. rewrite serialize_payload by assumption.
  rewrite spec_enc_payload in *.
  destruct (ser_enc _ (proj1 (payload_wft t hdr Hwf Hc)) v w_new [] (payload_valid t hdr v Hv) WR_new) as (w & E & W).
  rewrite E. eexists. split; [reflexivity|]. apply WR_packs; assumption.
Qed.

(* C06_roundtrip, C07_truncation_ser and C14_cross_version in one statement: what serialize wrote for t is read with any
   t' the coded type evolves into, whatever follows the representation *)
Theorem deserialize_serialized t t' v hdr bytes extra :
  wft t = true -> is_composite t = true -> hdr_ok t hdr = true -> validb t v = true ->
  hdr_ok t' hdr = true -> tok (payload_type t' hdr) -> evolves (payload_type t hdr) (payload_type t' hdr) = true ->
  bytes_ok extra -> serialize t v hdr = Ok bytes ->
  deserialize t' (bytes ++ extra) hdr = Ok (conv (payload_type t hdr) (payload_type t' hdr) (canon t v)).
Proof.
  intros Hwf Hc Hh Hv Hh' Tk Hev Oe Hs.
  destruct (serialize_spec t v hdr Hwf Hc Hh Hv) as (bytes' & E & P). rewrite Hs in E. inversion E; subst bytes'. clear E.
  rewrite spec_enc_payload in P. rewrite deserialize_payload by assumption.
  rewrite (evolve_deser _ _ (proj1 (payload_wft t hdr Hwf Hc)) Hev Tk v _ (payload_valid t hdr v Hv) (ahead_packs _ extra _ P Oe)), payload_canon.
  - reflexivity.
  - apply Z.mod_0_l. pose proof (align_pos (payload_type t hdr)). lia.
Qed.

Theorem roundtrip_junk t v hdr bytes extra :
  wft t = true -> serializable t = true -> is_composite t = true -> hdr_ok t hdr = true -> validb t v = true ->
  bytes_ok extra -> serialize t v hdr = Ok bytes -> deserialize t (bytes ++ extra) hdr = Ok (canon t v).
Proof.
  intros Hwf Hsz Hc Hh Hv Oe Hs.
  rewrite (deserialize_serialized t t v hdr bytes extra Hwf Hc Hh Hv Hh (payload_tok t hdr Hwf Hsz Hc) (evolves_refl _) Oe Hs).
  rewrite <- (payload_canon t hdr v), (conv_refl _ v (payload_valid t hdr v Hv)). reflexivity.
Qed.

Corollary roundtrip t v hdr bytes :
  wft t = true -> serializable t = true -> is_composite t = true -> hdr_ok t hdr = true -> validb t v = true ->
  serialize t v hdr = Ok bytes -> deserialize t bytes hdr = Ok (canon t v).
Proof.
  intros. rewrite <- (app_nil_r bytes). eapply roundtrip_junk; eauto. constructor.
Qed.

(* serialize succeeds exactly on valid values is not claimed; it does succeed on every valid value *)
Corollary serialize_total t v hdr : wft t = true -> is_composite t = true -> hdr_ok t hdr = true -> validb t v = true ->
  exists bytes, serialize t v hdr = Ok bytes.
Proof. intros. destruct (serialize_spec t v hdr) as (b & E & _); eauto. Qed.
