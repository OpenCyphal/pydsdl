(* C07 (rejection part): lengths, tags and headers above the limit are rejected, never clamped.
   C06: the delimiter-header flag is refused for every type that is not delimited. *)
From Coq Require Import ZArith List Lia.
From PV Require Import Layout.Types Serdes.Model.
Import ListNotations.
Open Scope Z_scope.

Lemma rejects_array e n r :
  n < fst (read_bits r (prefix_width (align e) n)) -> deser (TVar e n) r = Err EArrayLength.
Proof.
  intros H. cbn [deser]. destruct (read_bits r (prefix_width (align e) n)) as [len r0]. cbn [fst snd] in H.
  destruct (n <? len) eqn:E; [reflexivity|]. apply Z.ltb_ge in E. lia.
Qed.

Lemma rejects_tag nm fs r :
  zlen fs <= fst (read_bits r (union_tag_width fs)) -> deser (TUnion nm fs) r = Err EUnionTag.
Proof.
  intros H. cbn [deser]. destruct (read_bits r (union_tag_width fs)) as [tag r0]. cbn [fst snd] in H.
  destruct (zlen fs <=? tag) eqn:E; [reflexivity|]. apply Z.leb_gt in E. lia.
Qed.

Lemma rejects_header i ext r :
  remaining_bits (snd (read_bits r (header_width (align i)))) < 8 * fst (read_bits r (header_width (align i))) ->
  deser (TDelim i ext) r = Err EDelimHeader.
Proof.
  intros H. cbn [deser]. destruct (read_bits r (header_width (align i))) as [nb r0]. cbn [fst snd] in H.
  destruct (remaining_bits r0 <? nb * 8) eqn:E; [reflexivity|]. apply Z.ltb_ge in E. lia.
Qed.

Lemma accepts_array e n r v r' :
  deser (TVar e n) r = Ok (v, r') -> fst (read_bits r (prefix_width (align e) n)) <= n.
Proof. intros E. apply Z.nlt_ge. intros L. rewrite (rejects_array _ _ _ L) in E. discriminate. Qed.

Lemma accepts_tag nm fs r v r' :
  deser (TUnion nm fs) r = Ok (v, r') -> fst (read_bits r (union_tag_width fs)) < zlen fs.
Proof. intros E. apply Z.nle_gt. intros L. rewrite (rejects_tag nm _ _ L) in E. discriminate. Qed.

Lemma accepts_header i ext r v r' :
  deser (TDelim i ext) r = Ok (v, r') ->
  8 * fst (read_bits r (header_width (align i))) <= remaining_bits (snd (read_bits r (header_width (align i)))).
Proof. intros E. apply Z.nlt_ge. intros L. rewrite (rejects_header _ ext _ L) in E. discriminate. Qed.

Lemma serialize_header_flag_sealed t v :
  (match t with TDelim _ _ => false | _ => true end) = true -> serialize t v true = Err EValue.
Proof. destruct t; simpl; intros H; try reflexivity; discriminate. Qed.

Lemma deserialize_header_flag_sealed t d :
  (match t with TDelim _ _ => false | _ => true end) = true -> deserialize t d true = Err EValue.
Proof. destruct t; simpl; intros H; try reflexivity; discriminate. Qed.
