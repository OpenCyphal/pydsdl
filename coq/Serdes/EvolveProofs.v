(* C14 (wire part): data written with type t is read with any type t' such that [evolves t t'] as [conv t t' (canon t v)];
   the reader ends exactly where the writer ended.  The round trip (Roundtrip.v) is the case t' = t. *)
From Coq Require Import ZArith List Bool Lia ZifyBool.
From PV Require Import Layout.Types Layout.Proofs Layout.ProofsSpec.
From PV Require Import Serdes.Utf8 Serdes.Model Serdes.Bits Serdes.BitsProofs Serdes.ReaderProofs Serdes.Spec
  Serdes.SerProofs Serdes.DeserProofs Serdes.Evolve Serdes.ProofsLayout Serdes.ZeroDecode.
Import ListNotations.
Open Scope Z_scope.

Definition decodes_as (t t' : ty) : Prop := forall v r, validb t v = true -> ahead r (enc t v (roff r)) -> roff r mod align t = 0 ->
  deser t' r = Ok (conv t t' (canon t v), r_adv r (zlen (enc t v (roff r)))).

(* the writer's type only has to be constructible, the reader's has to be one the codec handles *)
Definition evolve_ok (t : ty) : Prop := forall t', evolves t t' = true -> tok t' -> decodes_as t t'.

Lemma evolves_void_width t t' : evolves t t' = true -> void_width t = void_width t'.
Proof. intros H. apply evolves_inv in H. destruct t, t'; try contradiction; try reflexivity. exact H. Qed.

Lemma evolves_utf8 e e' : evolves e e' = true -> is_utf8 e' = is_utf8 e.
Proof. intros H. apply evolves_inv in H. destruct e, e'; try contradiction; try reflexivity. subst. reflexivity. Qed.

Lemma fields_evolve_prefix (E : ty -> ty -> bool) fs : forall gs, fields_evolve E fs gs = true ->
  fields_prefix_evolve E fs gs = true /\ length fs = length gs.
Proof.
  induction fs as [|f fr IH]; intros [|g gr] H; cbn [fields_evolve fields_prefix_evolve] in *; try discriminate; auto.
  apply andb_prop in H. destruct H as [H1 H2]. destruct (IH gr H2) as [A B]. rewrite H1, A. simpl. auto.
Qed.

Lemma union_tag_width_ext (fs gs : list (option str * ty)) : map (fun f => align (snd f)) fs = map (fun f => align (snd f)) gs ->
  union_tag_width fs = union_tag_width gs /\ zlen gs = zlen fs.
Proof.
  intros H. unfold union_tag_width, zlen. rewrite (fold_max_ext align 0 fs gs H).
  assert (L : length fs = length gs) by (rewrite <- (map_length (fun f => align (snd f)) fs), H, map_length; reflexivity).
  rewrite L. auto.
Qed.

Lemma conv_prim_id p t' v : conv (TPrim p) t' v = v.
Proof. reflexivity. Qed.

Lemma canon_bytes_id vs : forall bs, byte_values vs = Some bs -> map (canon (TPrim PUtf8)) vs = vs.
Proof.
  induction vs as [|v r IH]; intros bs H; [reflexivity|]. cbn [byte_values] in H. destruct v; try discriminate.
  destruct ((0 <=? z) && (z <=? 255)) eqn:R; [|discriminate]. destruct (byte_values r) as [br|] eqn:Er; [|discriminate].
  cbn [map]. rewrite (IH br eq_refl). f_equal. cbn [canon canon_prim as_int cast_int]. rewrite Z.mod_small by lia. reflexivity.
Qed.

Lemma finish_array_conv e e' vs : evolves e e' = true ->
  (if is_utf8 e then match byte_values vs with Some bs => utf8_valid bs | None => false end else true) = true ->
  finish_array e' (map (conv e e') (map (canon e) vs)) = Ok (VList (map (conv e e') (map (canon e) vs))).
Proof.
  intros Hev. unfold finish_array. rewrite (evolves_utf8 e e' Hev). destruct (is_utf8 e) eqn:U; [|reflexivity].
  destruct e; try discriminate. destruct p; try discriminate.
  destruct (byte_values vs) as [bs|] eqn:B; [|discriminate]. intros V. rewrite (canon_bytes_id vs bs B).
  replace (map (conv (TPrim PUtf8) e') vs) with vs by (symmetry; apply map_id). rewrite B, V. reflexivity.
Qed.

Lemma evolve_elems e e' : decodes_as e e' -> keeps_align e ->
  forall vs r, forallb (validb e) vs = true -> ahead r (enc_elems (enc e) vs (roff r)) -> roff r mod align e = 0 ->
  deser_elems (deser e') (length vs) r = Ok (map (conv e e') (map (canon e) vs), r_adv r (zlen (enc_elems (enc e) vs (roff r)))).
Proof.
  intros He Ka. induction vs as [|v vs IH]; intros r Hv Hs Ha; cbn [length deser_elems map enc_elems forallb] in *.
  - rewrite r_adv_nil. reflexivity.
  - apply andb_prop in Hv. destruct Hv as [Hv1 Hv2]. apply ahead_app in Hs. destruct Hs as [S1 S2].
    rewrite (He v r Hv1 S1 Ha), (IH _ Hv2 S2 (Ka v (roff r) Ha)), r_adv_app. reflexivity.
Qed.

(* The reader may know more trailing fields than the writer (they must then see zeros: the rest of the window of a
   delimited object), or fewer (it stops early); with equally many it ends where the writer ended. *)
Lemma evolve_fields fs : Forall (fun f => wft (snd f) = true /\ evolve_ok (snd f)) fs ->
  forall gs, fields_prefix_evolve evolves fs gs = true -> Forall (fun g => tok (snd g)) gs ->
  forall vs r, valid_fields validb fs vs = true -> ahead r (enc_fields enc fs vs (roff r)) ->
  ((length fs < length gs)%nat -> zeros_ahead (r_adv r (zlen (enc_fields enc fs vs (roff r))))) ->
  exists r', deser_fields deser gs r = Ok (conv_fields conv fs gs (canon_fields canon fs vs), r') /\
             (length fs = length gs -> r' = r_adv r (zlen (enc_fields enc fs vs (roff r)))).
Proof.
  induction 1 as [|[nm t] fr [Hwt Ht] _ IH]; intros gs Hev Hg vs r Hv Hs Hz.
  - cbn [enc_fields canon_fields conv_fields] in *. rewrite r_adv_nil in *. destruct gs as [|g gr].
    + exists r. auto.
    + destruct (zero_fields (g :: gr) (Forall_impl _ (fun g T => conj T (zero_decode _ T)) Hg) r) as (r' & E & _).
      { split; [apply Hs|]. apply Hz. simpl. lia. }
      exists r'. split; [exact E|discriminate].
  - destruct gs as [|[nm' t'] gr].
    + exists r. split; [|discriminate]. cbn [deser_fields canon_fields conv_fields]. destruct nm; [destruct vs|]; reflexivity.
    + cbn [fields_prefix_evolve fst snd] in *. rewrite !andb_true_iff in Hev. destruct Hev as [[Hk Het] Hevr].
      inversion Hg as [|? ? Tk Hgr]; subst. cbn [snd] in Tk. destruct (evolves_lay_eq t t' Het) as [_ Eal].
      cbn [deser_fields enc_fields canon_fields conv_fields valid_fields] in *.
      rewrite <- Eal, (r_align_to_pad r _ (align_pos t)). pose proof (roff_pad_aligned r _ (align_pos t)) as Ha.
      destruct nm as [nm|]; destruct nm' as [nm'|]; try discriminate.
      * destruct vs as [|v vs']; [discriminate|]. apply andb_prop in Hv. destruct Hv as [Hv1 Hv2].
        rewrite !r_adv_app in Hz. apply ahead_app in Hs. destruct Hs as [_ Hs]. apply ahead_app in Hs. destruct Hs as [S1 S2].
        rewrite (Ht t' Het Tk _ _ Hv1 S1 Ha), roff_adv.
        destruct (IH gr Hevr Hgr vs' _ Hv2 S2) as (r' & E & Hl). { intros Hlen. apply Hz. simpl. lia. }
        rewrite E. exists r'. split; [reflexivity|]. intros Hlen. rewrite !r_adv_app. apply Hl. simpl in Hlen. lia.
      * rewrite <- (evolves_void_width t t' Het).
        set (p1 := zero_bits (pad_len (align t) (roff r))) in *. set (p2 := zero_bits (void_width t)) in *.
        rewrite (zlen_app p1 p2), Z.add_assoc, <- app_assoc in *. rewrite !r_adv_app in Hz.
        apply ahead_app in Hs. destruct Hs as [_ Hs]. rewrite (read_void _ _ (proj1 Hs) (void_width_nonneg t Hwt)). fold p2.
        apply ahead_app in Hs. destruct Hs as [_ Hs].
        destruct (IH gr Hevr Hgr vs _ Hv Hs) as (r' & E & Hl). { intros Hlen. apply Hz. simpl. lia. }
        rewrite E. exists r'. split; [reflexivity|]. intros Hlen. rewrite !r_adv_app. apply Hl. simpl in Hlen. lia.
Qed.

Lemma evolve_variant fs : Forall (fun f => wft (snd f) = true /\ evolve_ok (snd f)) fs ->
  forall gs, fields_evolve evolves fs gs = true -> Forall (fun g => tok (snd g)) gs ->
  forall k v r, valid_variant validb fs k v = true -> ahead r (enc_variant enc fs k v (roff r)) -> roff r mod 8 = 0 ->
  deser_variant deser gs k r = Ok (conv_variant conv fs gs k (canon_variant canon fs k v), r_adv r (zlen (enc_variant enc fs k v (roff r)))).
Proof.
  induction 1 as [|f fr [_ Hf] _ IH]; intros gs Hev Hg k v r Hv Hs Ha; cbn [valid_variant] in Hv; [discriminate|].
  destruct gs as [|g gr]; [discriminate|]. cbn [fields_evolve] in Hev. rewrite !andb_true_iff in Hev. destruct Hev as [[_ Het] Hevr].
  inversion Hg as [|? ? Tk Hgr]; subst.
  cbn [deser_variant enc_variant canon_variant conv_variant] in *. destruct k as [|k].
  - apply (Hf (snd g) Het Tk v r Hv Hs). apply mod8_align. assumption.
  - apply (IH gr Hevr Hgr k v r); assumption.
Qed.

(* decoding a delimited object is decoding the inner object from a reader that has exactly the inner bits ahead and
   zeros after them *)
Lemma deser_delim i' ext' r b x : (match i' with TStruct _ _ | TUnion _ _ => true | _ => false end) = true ->
  roff r mod 8 = 0 -> zlen b mod 8 = 0 -> zlen b / 8 < 2 ^ 32 -> ahead r (low_bits (Z.to_nat 32) (zlen b / 8) ++ b) ->
  (forall sub, ahead sub b -> roff sub mod 8 = 0 -> zeros_ahead (r_adv sub (zlen b)) -> exists r', deser i' sub = Ok (x, r')) ->
  deser (TDelim i' ext') r = Ok (x, r_adv r (zlen (low_bits (Z.to_nat 32) (zlen b / 8) ++ b))).
Proof.
  intros Hc Ha M8 Hfit Hs Hin. pose proof (zlen_nonneg b). cbn [deser]. rewrite (header_width_delim i' Hc).
  destruct (read_ahead r 32 _ _ ltac:(lia) Hs) as [E S]. rewrite E, Z.mod_small by (split; [apply Z.div_pos; lia|assumption]).
  rewrite (div8_mul8 _ M8), (ahead_remaining _ _ S).
  destruct (Hin _ (ahead_sub _ _ S)) as (r' & E').
  - cbn [bounded_subreader fst roff]. rewrite roff_adv. apply mod8_add; [assumption|reflexivity].
  - intros j Hj. apply sub_beyond. exact Hj.
  - cbn [bounded_subreader fst snd] in *. rewrite E', r_adv_app, zlen_low_bits_Z by lia. reflexivity.
Qed.

(* the induction also carries the fields of a structure: under a delimited wrapper they are read against a longer or
   shorter field list *)
Definition evolve_ok_deep (t : ty) : Prop := evolve_ok t /\ match t with TStruct _ fs => Forall (fun f => wft (snd f) = true /\ evolve_ok (snd f)) fs | _ => True end.

Lemma evolve_ok_fields fs : Forall (fun f => wft (snd f) = true -> evolve_ok_deep (snd f)) fs -> all_fields_ok wft fs = true ->
  Forall (fun f => wft (snd f) = true /\ evolve_ok (snd f)) fs.
Proof.
  intros IH Hwf. apply (Forall_impl _ (fun f H => conj (proj1 H) (proj1 (proj2 H))) (Forall_mp_and _ _ fs IH (fields_wft fs Hwf))).
Qed.

Lemma evolve_ok_all : forall t, wft t = true -> evolve_ok_deep t.
Proof.
  induction t as [p|wd|e n IHe|e n IHe|nm fs IHfs|nm fs IHfs|i ext IHi] using ty_ind'; intros Hwf; (split; [|try exact I]);
    try (intros t' Hev Tk v r Hv Hs Ha; pose proof Tk as [Hwf' _]; pose proof (evolves_inv _ _ Hev) as Hi;
         destruct t' as [p'|w'|e' n'|e' n'|nm' gs|nm' gs|i' ext']; try contradiction).
  - (* TPrim *) subst p'.
    cbn [wft validb deser enc canon conv] in *. rewrite (deser_prim_ok p v r Hwf Hv Hs). reflexivity.
  - (* TVoid *) subst w'.
    cbn [wft validb deser enc canon conv] in *. rewrite (read_void r wd (proj1 Hs)) by lia. reflexivity.
  - (* TFix *) destruct Hi as [<- Hee].
    destruct (wft_fix e n Hwf) as [Hwe Hn]. destruct (tok_fix e' n Tk) as (Te' & _ & Hu).
    cbn [validb deser enc canon conv align] in *. destruct v; try discriminate.
    rewrite andb_true_iff, Z.eqb_eq in Hv. destruct Hv as [Hl Hvs]. replace (Z.to_nat n) with (length vs) by (unfold zlen in Hl; lia).
    rewrite (evolve_elems e e' (proj1 (IHe Hwe) e' Hee Te') (enc_aligned e Hwe) vs r Hvs Hs Ha).
    unfold finish_array. rewrite Hu. reflexivity.
  - (* TVar *) destruct Hi as [<- Hee].
    pose proof (cap_lt_prefix e n Hwf) as Hcap. pose proof (prefix_width_mod8 e n Hwf) as [P1 P2].
    destruct (wft_var e n Hwf) as (Hwe & Hn & _). destruct (tok_var e' n Tk) as [Te' _]. destruct (evolves_lay_eq e e' Hee) as [_ Eal].
    cbn [validb deser enc canon conv align] in *. rewrite <- Eal. destruct v; try discriminate.
    rewrite !andb_true_iff in Hv. destruct Hv as [[Hl Hvs] Hu]. pose proof (zlen_nonneg vs).
    destruct (read_ahead r (prefix_width (align e) n) _ _ ltac:(lia) Hs) as [E S]. rewrite E, Z.mod_small by lia.
    replace (n <? zlen vs) with false by lia. replace (Z.to_nat (zlen vs)) with (length vs) by (unfold zlen; lia).
    rewrite (evolve_elems e e' (proj1 (IHe Hwe) e' Hee Te') (enc_aligned e Hwe) vs _ Hvs S (align_add e _ _ Ha P1)).
    rewrite (finish_array_conv e e' vs Hee Hu), r_adv_app, zlen_low_bits_Z by lia. reflexivity.
  - (* TStruct *) destruct (fields_evolve_prefix evolves fs gs Hi) as [Hpre Hlen].
    cbn [wft validb deser enc canon conv align] in *. destruct v; try discriminate. rewrite !max_align_fields in *.
    apply ahead_app in Hs. destruct Hs as [S1 _].
    destruct (evolve_fields fs (evolve_ok_fields fs IHfs Hwf) gs Hpre (tok_struct nm' gs Tk) vs r Hv S1) as (r' & E & Hl). { intros Hlt. lia. }
    rewrite E, (Hl Hlen), (r_align_to_pad _ 8), r_adv_app by lia. reflexivity.
  - (* TStruct, second conjunct of evolve_ok_deep: only a structure has fields for a delimited wrapper to read, so only
       here is it more than True *)
    exact (evolve_ok_fields fs IHfs Hwf).
  - (* TUnion *) pose proof (variants_le_tag nm fs Hwf) as Hnv. pose proof (tag_width_mod8 nm fs Hwf) as [T1 T2].
    destruct (union_tag_width_ext fs gs (proj2 (evolves_fields_maps fs gs Hi))) as [Etw Elen].
    destruct (wft_union nm fs Hwf) as (Hwfs & _).
    cbn [validb deser enc canon conv align] in *. destruct v; try discriminate. rewrite !andb_true_iff in Hv. destruct Hv as [Hk Hvv].
    rewrite !max_align_fields in *. rewrite <- Etw, Elen, <- app_assoc in *.
    destruct (read_ahead r (union_tag_width fs) _ _ ltac:(lia) Hs) as [E S]. rewrite E, Z.mod_small by lia. replace (zlen fs <=? k) with false by lia.
    apply ahead_app in S. destruct S as [S _].
    rewrite (evolve_variant fs (evolve_ok_fields fs IHfs Hwfs) gs Hi (Forall_impl _ (fun g H => proj1 H) (tok_union nm' gs Tk)) _ v _ Hvv S)
      by (rewrite roff_adv; apply mod8_add; assumption).
    rewrite (r_align_to_pad _ 8), !r_adv_app, zlen_app, zlen_low_bits_Z, !roff_adv, Z.add_assoc by lia. reflexivity.
  - (* TDelim *) destruct Hi as [_ Hi].
    destruct (wft_delim i ext Hwf) as (Hwi & Hc & A8 & _). destruct (wft_delim i' ext' Hwf') as (_ & Hc' & _).
    destruct (tok_delim i' ext' Tk) as [Ti' _]. destruct (IHi Hwi) as [Qi Fi].
    cbn [validb] in Hv. apply andb_prop in Hv. destruct Hv as [Hv Hfit].
    cbn [enc canon conv align] in *. rewrite (header_width_delim i Hc) in *. rewrite A8 in Ha.
    apply (deser_delim i' ext' r _ _ Hc' Ha (enc_composite_mod8 i v Hc) ltac:(lia) Hs). intros sub Ss M Zs.
    destruct Hi as [Hev'|(nm & fs & nm' & gs & -> & ->)].
    + eexists. apply (Qi i' Hev' Ti' v sub Hv); [|rewrite A8; exact M].
      rewrite (enc_offset_mod i v (roff sub) 0) by (rewrite Z.sub_0_r; exact M). exact Ss.
    + (* the hole: a delimited structure read with a revision that has more / fewer trailing fields *)
      cbn [evolves] in Hev. apply andb_prop in Hev. destruct Hev as [_ Hpre].
      cbn [wft validb] in Hwi, Hv. destruct v; try discriminate. cbn [enc deser canon conv] in *.
      apply ahead_app in Ss. destruct Ss as [S1 S2]. rewrite r_adv_app in Zs.
      assert (Eo : enc_fields enc fs vs 0 = enc_fields enc fs vs (roff sub)).
      { apply enc_fields_cong; [|rewrite Z.sub_0_l, Z.mod_opp_l_z; lia]. apply Forall_forall. intros f _. apply enc_offset_mod. }
      rewrite Eo in *.
      destruct (evolve_fields fs Fi gs Hpre (tok_struct nm' gs Ti') vs sub Hv S1) as (r' & E & _).
      { intros _. apply (zeros_ahead_pad _ _ S2 Zs). }
      rewrite E. eauto.
Qed.

Theorem evolve_deser t t' : wft t = true -> evolves t t' = true -> tok t' -> decodes_as t t'.
Proof. intros Hw He Tk. exact (proj1 (evolve_ok_all t Hw) t' He Tk). Qed.

(* the same with the reader state spelled out: good state, the bits (followed by anything) in view, room for them *)
Lemma evolve_deser_sees t : wft t = true -> forall t', evolves t t' = true -> wft t' = true -> serializable t' = true ->
  forall v r rest, validb t v = true -> rok r -> roff r mod align t = 0 ->
  sees r (enc t v (roff r) ++ rest) -> roff r + zlen (enc t v (roff r)) <= rend r ->
  deser t' r = Ok (conv t t' (canon t v), r_adv r (zlen (enc t v (roff r)))).
Proof.
  intros Hw t' He Hw' Hs' v r rest Hv Hr Ha Hse Hwn.
  exact (evolve_deser t t' Hw He (conj Hw' (or_introl Hs')) v r Hv (ahead_prefix r _ rest Hr Hse Hwn) Ha).
Qed.
