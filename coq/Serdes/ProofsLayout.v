(* C14 without readers or writers: the layout of a container does not depend on the field list of a nested delimited
   structure, and what [conv] does to values (nothing between equal types; at a hole it appends zero values, old -> new,
   or drops the fields the reader does not know, new -> old). *)
From Coq Require Import ZArith List Bool Lia.
From PV Require Import BLS.Model Layout.Types Layout.Proofs Serdes.Model Serdes.Spec Serdes.Evolve.
Import ListNotations.
Open Scope Z_scope.

Lemma cast_eqb_eq c d : cast_eqb c d = true -> c = d.
Proof. destruct c, d; simpl; congruence. Qed.

Lemma prim_eqb_eq p q : prim_eqb p q = true -> p = q.
Proof.
  destruct p, q; try discriminate; cbn [prim_eqb]; intros H; try reflexivity.
  1, 3: apply andb_prop in H; destruct H as [H1 H2]; apply Z.eqb_eq in H1; apply cast_eqb_eq in H2; subst; reflexivity.
  apply Z.eqb_eq in H. subst. reflexivity.
Qed.

Definition lay_eq (t t' : ty) : Prop := bls t = bls t' /\ align t = align t'.

Lemma evolves_fields_maps_step fs : forall gs,
  Forall (fun f => forall t', evolves (snd f) t' = true -> lay_eq (snd f) t') fs ->
  fields_evolve evolves fs gs = true ->
  map (fun f => bls (snd f)) fs = map (fun f => bls (snd f)) gs /\
  map (fun f => align (snd f)) fs = map (fun f => align (snd f)) gs.
Proof.
  induction fs as [|x fs IH]; intros [|y gs] HF H; cbn [fields_evolve map] in *; try discriminate; auto.
  apply andb_prop in H. destruct H as [H H3]. apply andb_prop in H. destruct H as [_ H2].
  inversion HF as [|? ? Hx HF']; subst.
  destruct (Hx _ H2) as [A B]. destruct (IH gs HF' H3) as [C D]. split; f_equal; assumption.
Qed.

Lemma struct_agg_from_ext (B : ty -> op) (A : ty -> Z) (fs : list (option str * ty)) : forall gs acc,
  map (fun f => B (snd f)) fs = map (fun f => B (snd f)) gs ->
  map (fun f => A (snd f)) fs = map (fun f => A (snd f)) gs ->
  struct_agg_from B A acc fs = struct_agg_from B A acc gs.
Proof.
  induction fs as [|x fs IH]; intros [|y gs] acc H1 H2; try discriminate; [reflexivity|].
  injection H1 as E1 H1. injection H2 as E2 H2. cbn [struct_agg_from]. rewrite E1, E2. apply IH; assumption.
Qed.

Lemma struct_agg_ext (B : ty -> op) (A : ty -> Z) (fs gs : list (option str * ty)) :
  map (fun f => B (snd f)) fs = map (fun f => B (snd f)) gs ->
  map (fun f => A (snd f)) fs = map (fun f => A (snd f)) gs ->
  struct_agg B A fs = struct_agg B A gs.
Proof.
  destruct fs as [|x fs], gs as [|y gs]; intros H1 H2; try discriminate; [reflexivity|].
  injection H1 as E1 H1. injection H2 as _ H2. cbn [struct_agg]. rewrite E1. apply struct_agg_from_ext; assumption.
Qed.

Lemma fold_max_ext (A : ty -> Z) z (fs gs : list (option str * ty)) :
  map (fun f => A (snd f)) fs = map (fun f => A (snd f)) gs ->
  fold_right (fun f acc => Z.max (A (snd f)) acc) z fs = fold_right (fun f acc => Z.max (A (snd f)) acc) z gs.
Proof.
  revert gs. induction fs as [|x fs IH]; intros [|y gs] H; try discriminate; [reflexivity|].
  injection H as E H. cbn [fold_right]. rewrite E, (IH gs H). reflexivity.
Qed.

Lemma union_agg_ext (B : ty -> op) (A : ty -> Z) (fs gs : list (option str * ty)) :
  map (fun f => B (snd f)) fs = map (fun f => B (snd f)) gs ->
  map (fun f => A (snd f)) fs = map (fun f => A (snd f)) gs ->
  union_agg B A fs = union_agg B A gs.
Proof.
  intros H1 H2. pose proof (f_equal (@length _) H1) as L. rewrite !map_length in L. unfold union_agg.
  destruct fs as [|x [|x2 fs]], gs as [|y [|y2 gs]]; try discriminate; [reflexivity|injection H1 as E; exact E|].
  rewrite (fold_max_ext A 0 _ _ H2), L, H1. reflexivity.
Qed.

(* [evolves] relates types with the same head constructor only; what it says of their components *)
Lemma evolves_inv t t' : evolves t t' = true ->
  match t, t' with
  | TPrim p, TPrim q => p = q
  | TVoid w, TVoid w' => w = w'
  | TFix e n, TFix e' n' | TVar e n, TVar e' n' => n = n' /\ evolves e e' = true
  | TStruct _ fs, TStruct _ gs | TUnion _ fs, TUnion _ gs => fields_evolve evolves fs gs = true
  | TDelim i x, TDelim i' x' =>
      x = x' /\ (evolves i i' = true \/ exists nm fs nm' gs, i = TStruct nm fs /\ i' = TStruct nm' gs)
  | _, _ => False
  end.
Proof.
  destruct t as [p|w|e n|e n|nm fs|nm fs|i x], t' as [q|w'|e' n'|e' n'|nm' gs|nm' gs|i' x'];
    try discriminate; try (destruct i; discriminate); cbn [evolves]; intros H.
  - apply prim_eqb_eq, H.
  - apply Z.eqb_eq, H.
  - apply andb_prop in H. split; [apply Z.eqb_eq|]; apply H.
  - apply andb_prop in H. split; [apply Z.eqb_eq|]; apply H.
  - exact H.
  - exact H.
  - (* every pair of inner types other than two structures is compared by [evolves] itself *)
    assert (S : (exists nm fs nm' gs, i = TStruct nm fs /\ i' = TStruct nm' gs) \/ (x =? x') && evolves i i' = true).
    { destruct i, i'; try (right; exact H); left; eauto 8. }
    destruct S as [(nm & fs & nm' & gs & -> & ->)|S].
    + apply andb_prop in H. split; [apply Z.eqb_eq, H|right; eauto 8].
    + apply andb_prop in S. split; [apply Z.eqb_eq, S|left; apply S].
Qed.

Lemma evolves_lay_eq : forall t t', evolves t t' = true -> lay_eq t t'.
Proof.
  induction t as [p|w|e n IHt|e n IHt|nm fs IHfs|nm fs IHfs|t ext IHt] using ty_ind'; intros t' H; apply evolves_inv in H;
    destruct t' as [p'|w'|e' n'|e' n'|nm' gs|nm' gs|t' ext']; try contradiction.
  - subst. split; reflexivity.
  - subst. split; reflexivity.
  - destruct H as [-> H]. destruct (IHt _ H) as [A B]. split; simpl; congruence.
  - destruct H as [-> H]. destruct (IHt _ H) as [A B]. split; simpl; congruence.
  - destruct (evolves_fields_maps_step _ _ IHfs H) as [A B]. split; cbn [bls align]; rewrite !max_align_fields; [|reflexivity].
    rewrite (struct_agg_ext bls align _ _ A B). reflexivity.
  - destruct (evolves_fields_maps_step _ _ IHfs H) as [A B]. split; cbn [bls align]; rewrite !max_align_fields; [|reflexivity].
    rewrite (union_agg_ext bls align _ _ A B). reflexivity.
  - (* delimited: the set mentions only the alignment of the inner type and the extent *)
    destruct H as [-> H]. assert (G : align t = align t').
    { destruct H as [H|(nm & fs & nm' & gs & -> & ->)]; [exact (proj2 (IHt _ H))|]. cbn [align]. rewrite !max_align_fields. reflexivity. }
    split; simpl; rewrite G; reflexivity.
Qed.

Lemma evolves_extent t t' : evolves t t' = true -> extent t = extent t'.
Proof.
  intros H. destruct (evolves_lay_eq _ _ H) as [A _]. apply evolves_inv in H.
  destruct t, t'; try contradiction; unfold extent; try (rewrite A; reflexivity). exact (proj1 H).
Qed.

(* the per-field layout inputs of a structure / union container are equal too: every field offset is a function of
   the bit length sets and alignments of the preceding fields only *)
Lemma evolves_fields_maps fs gs :
  fields_evolve evolves fs gs = true ->
  map (fun f => bls (snd f)) fs = map (fun f => bls (snd f)) gs /\
  map (fun f => align (snd f)) fs = map (fun f => align (snd f)) gs.
Proof.
  intros H. apply evolves_fields_maps_step; [|exact H].
  apply Forall_forall. intros f _ t' Ht. apply evolves_lay_eq. exact Ht.
Qed.

Definition crefl (t : ty) : Prop := forall v, validb t v = true -> conv t t (canon t v) = canon t v.

(* old -> new: the reader's additional trailing fields get the zero value; with no additional field, nothing changes *)
Lemma conv_fields_extend fs gs : Forall (fun f => crefl (snd f)) fs -> forall vs, valid_fields validb fs vs = true ->
  conv_fields conv fs (fs ++ gs) (canon_fields canon fs vs) = canon_fields canon fs vs ++ default_fields default_value gs.
Proof.
  induction 1 as [|[nm t] r Ht Hr IH]; intros vs Hv; cbn [conv_fields canon_fields valid_fields app] in *; [reflexivity|].
  destruct nm as [nm|]; [|apply IH; assumption].
  destruct vs as [|v vs']; [discriminate|]. apply andb_prop in Hv. destruct Hv as [Hv1 Hv2]. cbn [snd app] in *.
  rewrite (Ht _ Hv1), (IH _ Hv2). reflexivity.
Qed.

Lemma conv_elems_refl e : crefl e -> forall vs, forallb (validb e) vs = true -> map (conv e e) (map (canon e) vs) = map (canon e) vs.
Proof.
  intros He. induction vs as [|x r IH]; [reflexivity|]. cbn [forallb map]. intros Hv. apply andb_prop in Hv. destruct Hv as [H1 H2].
  rewrite (He x H1), (IH H2). reflexivity.
Qed.

Theorem conv_refl : forall t, crefl t.
Proof.
  induction t as [p|wd|e n IHe|e n IHe|nm fs IHfs|nm fs IHfs|i ext IHi] using ty_ind'; unfold crefl; intros v Hv; cbn [validb] in Hv; cbn [conv canon]; try reflexivity.
  - destruct v; try reflexivity. apply andb_prop in Hv. destruct Hv as [_ Hv]. f_equal. apply conv_elems_refl; assumption.
  - destruct v; try reflexivity. apply andb_prop in Hv. destruct Hv as [Hv _]. apply andb_prop in Hv. destruct Hv as [_ Hv]. f_equal.
    apply conv_elems_refl; assumption.
  - destruct v; try reflexivity. f_equal. pose proof (conv_fields_extend fs [] IHfs vs Hv) as E. rewrite !app_nil_r in E. exact E.
  - destruct v; try reflexivity. apply andb_prop in Hv. destruct Hv as [_ Hv]. f_equal.
    generalize dependent (Z.to_nat k). clear k.
    induction IHfs as [|f r Hf Hr IH]; intros k Hv; cbn [conv_variant canon_variant valid_variant] in *; [reflexivity|].
    destruct k as [|k]; [apply Hf; assumption|apply IH; assumption].
  - apply andb_prop in Hv. destruct Hv as [Hv _]. apply IHi. assumption.
Qed.

Lemma all_crefl (fs : list (option str * ty)) : Forall (fun f => crefl (snd f)) fs.
Proof. apply Forall_forall. intros f _. apply conv_refl. Qed.

(* new -> old: the fields the reader does not know are dropped *)
Lemma conv_fields_restrict fs gs : forall vs, valid_fields validb (fs ++ gs) vs = true ->
  conv_fields conv (fs ++ gs) fs (canon_fields canon (fs ++ gs) vs) = canon_fields canon fs vs.
Proof.
  induction fs as [|[nm t] r IH]; intros vs Hv; cbn [conv_fields canon_fields valid_fields app] in *.
  - destruct gs as [|[nm t] gr]; cbn [conv_fields default_fields canon_fields]; [reflexivity|]. destruct nm; [destruct vs|]; reflexivity.
  - destruct nm as [nm|]; [|apply IH; assumption].
    destruct vs as [|v vs']; [discriminate|]. apply andb_prop in Hv. destruct Hv as [Hv1 Hv2]. cbn [snd].
    rewrite (conv_refl t _ Hv1), (IH _ Hv2). reflexivity.
Qed.

Theorem conv_old_to_new nm nm' fs gs x vs : valid_fields validb fs vs = true ->
  conv (TDelim (TStruct nm fs) x) (TDelim (TStruct nm' (fs ++ gs)) x) (canon (TDelim (TStruct nm fs) x) (VStruct vs)) =
  VStruct (canon_fields canon fs vs ++ default_fields default_value gs).
Proof. intros Hv. cbn [conv canon]. rewrite (conv_fields_extend fs gs (all_crefl fs) vs Hv). reflexivity. Qed.

Theorem conv_new_to_old nm nm' fs gs x vs : valid_fields validb (fs ++ gs) vs = true ->
  conv (TDelim (TStruct nm (fs ++ gs)) x) (TDelim (TStruct nm' fs) x) (canon (TDelim (TStruct nm (fs ++ gs)) x) (VStruct vs)) =
  VStruct (canon_fields canon fs vs).
Proof. intros Hv. cbn [conv canon]. rewrite (conv_fields_restrict fs gs vs Hv). reflexivity. Qed.

Lemma prim_eqb_refl p : prim_eqb p p = true.
Proof. destruct p; cbn [prim_eqb]; try reflexivity; try (destruct c); cbn [cast_eqb]; rewrite ?Z.eqb_refl; reflexivity. Qed.

Lemma same_kind_refl a : same_kind a a = true.
Proof. destruct a; reflexivity. Qed.

Theorem evolves_refl : forall t, evolves t t = true.
Proof.
  induction t as [p|wd|e n IHe|e n IHe|nm fs IHfs|nm fs IHfs|i ext IHi] using ty_ind'; cbn [evolves].
  - apply prim_eqb_refl.
  - apply Z.eqb_refl.
  - rewrite Z.eqb_refl, IHe. reflexivity.
  - rewrite Z.eqb_refl, IHe. reflexivity.
  - induction IHfs as [|f r Hf Hr IH]; cbn [fields_evolve]; [reflexivity|]. rewrite same_kind_refl, Hf, IH. reflexivity.
  - induction IHfs as [|f r Hf Hr IH]; cbn [fields_evolve]; [reflexivity|]. rewrite same_kind_refl, Hf, IH. reflexivity.
  - destruct i; rewrite ?Z.eqb_refl, ?IHi; try reflexivity.
    cbn [evolves] in IHi. cbn [andb]. clear - IHi. induction fs as [|f r IH]; cbn [fields_prefix_evolve fields_evolve] in *; [reflexivity|].
    apply andb_prop in IHi. destruct IHi as [A B]. rewrite A, (IH B). reflexivity.
Qed.

Lemma prefix_evolve_app fs gs : fields_prefix_evolve evolves fs (fs ++ gs) = true /\ fields_prefix_evolve evolves (fs ++ gs) fs = true.
Proof.
  induction fs as [|f r [IH1 IH2]]; cbn [fields_prefix_evolve app].
  - split; [reflexivity|destruct gs; reflexivity].
  - rewrite same_kind_refl, evolves_refl, IH1, IH2. auto.
Qed.

Theorem hole_evolves nm nm' fs gs x :
  evolves (TDelim (TStruct nm fs) x) (TDelim (TStruct nm' (fs ++ gs)) x) = true /\
  evolves (TDelim (TStruct nm (fs ++ gs)) x) (TDelim (TStruct nm' fs) x) = true.
Proof. cbn [evolves]. rewrite Z.eqb_refl. destruct (prefix_evolve_app fs gs) as [A B]. rewrite A, B. auto. Qed.
