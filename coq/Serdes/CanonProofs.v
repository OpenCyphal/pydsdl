(* Facts about canon: exact values are unchanged; default values are valid and canonical; integer casts. *)
From Coq Require Import ZArith List Bool Lia ZifyBool.
From PV Require Import Layout.Types Layout.Proofs Layout.ProofsSpec.
From PV Require Import Serdes.Model Serdes.BitsProofs Serdes.Spec Serdes.SerProofs Serdes.DeserProofs Serdes.Roundtrip
  Serdes.LenProofs Serdes.Exact.
Import ListNotations.
Open Scope Z_scope.

Lemma canon_exact_prim p v : prim_ok p = true -> exact_prim p v = true -> canon_prim p v = v.
Proof.
  intros Hp H. pose proof (prim_width_pos p Hp) as Hw.
  destruct p as [ | wd c | wd | wd c | | ]; destruct v; try discriminate; cbn [exact_prim canon_prim bool_of as_int cast_int prim_width] in *.
  - reflexivity.
  - assert (0 < 2 ^ wd) by (apply Z.pow_pos_nonneg; lia). f_equal. destruct c; unfold clamp; [lia|]. apply Z.mod_small. lia.
  - f_equal. unfold clamp. lia.
  - apply Z.eqb_eq in H. rewrite H. reflexivity.
  - f_equal. apply Z.mod_small. lia.
  - f_equal. apply Z.mod_small. lia.
Qed.

Lemma exact_not_omit : forall t, exactb t VOmit = false.
Proof. induction t; cbn [exactb]; try reflexivity; [destruct p; reflexivity|assumption]. Qed.

Lemma map_fixed {A} (f : A -> bool) (g : A -> A) l : (forall x, f x = true -> g x = x) -> forallb f l = true -> map g l = l.
Proof.
  intros H. induction l as [|x r IH]; cbn [forallb map]; [reflexivity|]. intros E. apply andb_prop in E. destruct E as [E1 E2].
  rewrite (H x E1), (IH E2). reflexivity.
Qed.

Lemma canon_exact : forall t, wft t = true -> forall v, exactb t v = true -> canon t v = v.
Proof.
  apply (wft_ind (fun t => forall v, exactb t v = true -> canon t v = v)); cbn [exactb canon].
  - intros p Hp v H. apply canon_exact_prim; assumption.
  - discriminate.
  - intros e n _ _ IHe v H. destruct v; try discriminate. f_equal. apply (map_fixed _ _ vs IHe H).
  - intros e n _ _ _ IHe v H. destruct v; try discriminate. f_equal. apply (map_fixed _ _ vs IHe H).
  - intros nm fs _ IH v H. destruct v; try discriminate. f_equal. revert vs H.
    induction IH as [|[nm' t] r Ht _ IH]; intros vs H; cbn [exact_fields canon_fields snd] in *.
    + destruct vs; [reflexivity|discriminate].
    + destruct nm' as [nm'|]; [|apply IH; assumption].
      destruct vs as [|x vs']; [discriminate|]. apply andb_prop in H. destruct H as [H1 H2].
      assert (Ex : x <> VOmit). { intros ->. rewrite exact_not_omit in H1. discriminate. }
      replace (match x with VOmit => default_value t | _ => x end) with x by (destruct x; auto; congruence).
      rewrite (Ht x H1), (IH vs' H2). reflexivity.
  - intros nm fs _ _ _ IH v H. destruct v; try discriminate. apply andb_prop in H. destruct H as [_ H]. f_equal.
    revert H. generalize (Z.to_nat k).
    induction IH as [|f r Hf _ IH]; intros j H; cbn [exact_variant canon_variant] in *; [reflexivity|].
    destruct j as [|j]; [apply Hf; assumption|apply IH; assumption].
  - intros i ext _ _ _ _ _ IHi v H. apply IHi. assumption.
Qed.

Lemma roundtrip_exact t v hdr bytes :
  wft t = true -> serializable t = true -> is_composite t = true -> hdr_ok t hdr = true -> validb t v = true -> exactb t v = true ->
  serialize t v hdr = Ok bytes -> deserialize t bytes hdr = Ok v.
Proof. intros Hw Hs Hc Hh Hv Hx E. rewrite <- (canon_exact t Hw v Hx). exact (roundtrip t v hdr bytes Hw Hs Hc Hh Hv E). Qed.

Lemma cast_in_range p z : (match p with
                           | PUInt w _ => 0 <= z < 2 ^ w
                           | PSInt w => - 2 ^ (w - 1) <= z < 2 ^ (w - 1)
                           | PByte | PUtf8 => 0 <= z < 256
                           | _ => True end) -> cast_int p z = z.
Proof.
  destruct p as [ | wd c | wd | wd c | | ]; cbn [cast_int]; intros H; try reflexivity; unfold clamp; try lia; try (apply Z.mod_small; exact H).
  destruct c; [lia|]. apply Z.mod_small. lia.
Qed.

Lemma cast_saturated_unsigned w z : 0 <= w -> cast_int (PUInt w Sat) z = if z <? 0 then 0 else if 2 ^ w - 1 <? z then 2 ^ w - 1 else z.
Proof. intros Hw. cbn [cast_int]. unfold clamp. assert (0 < 2 ^ w) by (apply Z.pow_pos_nonneg; lia).
  destruct (z <? 0) eqn:A; destruct (2 ^ w - 1 <? z) eqn:B; lia. Qed.

Lemma cast_saturated_signed w z : 1 <= w ->
  cast_int (PSInt w) z = if z <? - 2 ^ (w - 1) then - 2 ^ (w - 1) else if 2 ^ (w - 1) - 1 <? z then 2 ^ (w - 1) - 1 else z.
Proof. intros Hw. cbn [cast_int]. unfold clamp. assert (0 < 2 ^ (w - 1)) by (apply Z.pow_pos_nonneg; lia).
  destruct (z <? - 2 ^ (w - 1)) eqn:A; destruct (2 ^ (w - 1) - 1 <? z) eqn:B; lia. Qed.

Lemma cast_truncated w z : cast_int (PUInt w Trunc) z = z mod 2 ^ w.
Proof. reflexivity. Qed.

Lemma fit_of_small i ext v : wft (TDelim i ext) = true -> serializable i = true -> validb i v = true -> ext < 2 ^ 35 ->
  (zlen (enc i v 0) / 8 <? 2 ^ header_width (align i)) = true.
Proof.
  intros Hwf Hsz Hv Hx. pose proof (inner_le_extent i ext v Hwf Hsz Hv) as Le.
  destruct (wft_delim i ext Hwf) as (_ & Hc & _). rewrite (header_width_delim i Hc). apply Z.ltb_lt.
  apply Z.div_lt_upper_bound; [lia|]. change (8 * 2 ^ 32) with (2 ^ 35). lia.
Qed.

Definition dgood (t : ty) : Prop := validb t (default_value t) = true /\ canon t (default_value t) = default_value t.

Lemma default_prim p : prim_ok p = true -> dgood (TPrim p).
Proof.
  intros Hp. pose proof (prim_width_pos p Hp) as Hw. unfold dgood.
  destruct p as [ | wd c | wd | wd c | | ]; cbn [default_value validb valid_prim canon canon_prim bool_of as_int cast_int prim_width] in *.
  - auto.
  - split; [reflexivity|]. f_equal. assert (0 < 2 ^ wd) by (apply Z.pow_pos_nonneg; lia). destruct c; unfold clamp; [lia|]. apply Z.mod_0_l. lia.
  - split; [reflexivity|]. f_equal. assert (0 < 2 ^ (wd - 1)) by (apply Z.pow_pos_nonneg; lia). unfold clamp. lia.
  - split; [reflexivity|]. simpl in Hp. assert (Hc : wd = 16 \/ wd = 32 \/ wd = 64) by lia.
    destruct Hc as [ -> | [ -> | -> ] ]; destruct c; reflexivity.
  - split; reflexivity.
  - split; reflexivity.
Qed.

Lemma forallb_repeat {A} (f : A -> bool) x n : f x = true -> forallb f (repeat x n) = true.
Proof. intros H. induction n; cbn [repeat forallb]; [reflexivity|]. rewrite H, IHn. reflexivity. Qed.

Lemma map_repeat_fix {A} (f : A -> A) x n : f x = x -> map f (repeat x n) = repeat x n.
Proof. intros H. induction n; cbn [repeat map]; [reflexivity|]. rewrite H, IHn. reflexivity. Qed.

Lemma omit_default t : match default_value t with VOmit => default_value t | _ => default_value t end = default_value t.
Proof. destruct (default_value t); reflexivity. Qed.

Lemma ser_fields_omitted nm t r vs w :
  ser_fields ser ((Some nm, t) :: r) (VOmit :: vs) w = ser_fields ser ((Some nm, t) :: r) (default_value t :: vs) w.
Proof. cbn [ser_fields]. destruct (default_value t); reflexivity. Qed.

Lemma default_good_tok : forall t, tok t -> is_void t = false -> small_ext t = true -> dgood t.
Proof.
  apply (tok_ind (fun t => is_void t = false -> small_ext t = true -> dgood t)); cbn [small_ext]; unfold dgood.
  - intros p Hp _ _. apply default_prim. exact Hp.
  - discriminate.
  - intros e n _ Hve _ Hn IHe _ Hse. destruct (IHe Hve Hse) as [A B]. cbn [default_value validb canon].
    rewrite (forallb_repeat _ _ _ A), (map_repeat_fix _ _ _ B). unfold zlen. rewrite repeat_length.
    replace (Z.of_nat (Z.to_nat n) =? n) with true by lia. auto.
  - intros e n _ _ Hn _ _ _ _ _ _. cbn [default_value validb canon forallb map byte_values]. change (zlen (@nil val)) with 0.
    replace (0 <=? n) with true by lia. destruct (is_utf8 e); auto.
  - intros nm fs _ Vf IH _ Hse. cbn [default_value validb canon].
    assert (G : valid_fields validb fs (default_fields default_value fs) = true /\
                canon_fields canon fs (default_fields default_value fs) = default_fields default_value fs).
    { induction IH as [|[nm' t] r [_ Ht] _ IHr]; cbn [valid_fields canon_fields default_fields forallb fst snd] in *; [auto|].
      apply andb_prop in Hse. destruct Hse as [Het Her]. inversion Vf as [|? ? Vt Vr]; subst. cbn [fst snd] in Vt.
      destruct nm' as [nm'|]; [|apply IHr; assumption].
      destruct (Ht Vt Het) as [A B]. destruct (IHr Vr Her) as [C D]. rewrite omit_default, A, B, C, D. auto. }
    destruct G as [G1 G2]. rewrite G1, G2. auto.
  - intros nm fs Vf Hn _ _ _ IH _ Hse. destruct IH as [|f r [_ Hf] _]; [destruct (Hn eq_refl)|].
    cbn [default_value validb canon valid_variant canon_variant Z.to_nat forallb] in *.
    apply andb_prop in Hse. destruct Hse as [Het _]. destruct (Hf (Forall_inv Vf) Het) as [A B]. rewrite A, B, zlen_cons.
    pose proof (zlen_nonneg r). replace ((0 <=? 0) && (0 <? 1 + zlen r)) with true by lia. auto.
  - intros i ext [Hwf _] [_ Hs] Hvi _ _ IHi _ Hse. apply andb_prop in Hse. destruct Hse as [Hsi Hx].
    destruct Hs as [Hsz|Hsz]; [|congruence]. destruct (IHi Hvi Hsi) as [A B]. cbn [default_value validb canon].
    rewrite A, B, (fit_of_small i ext _ Hwf Hsz A ltac:(lia)). auto.
Qed.

Theorem default_good : forall t, wft t = true -> serializable t = true -> small_ext t = true -> dgood t.
Proof. intros t Hw Hs. apply default_good_tok; [split; auto|apply serializable_not_void; exact Hs]. Qed.

(* validity is a pure shape condition when extents are small: the semantic conjunct of validb (header fits) follows *)
Lemma delim_valid_of_inner i ext v : wft (TDelim i ext) = true -> serializable i = true -> ext < 2 ^ 35 ->
  validb i v = true -> validb (TDelim i ext) v = true.
Proof. intros Hwf Hsz Hx Hv. cbn [validb]. rewrite Hv, (fit_of_small i ext v Hwf Hsz Hv Hx). reflexivity. Qed.
