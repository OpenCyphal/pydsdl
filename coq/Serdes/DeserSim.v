(* Every decoder built from read_bits, alignment and bounded sub-readers is [local]: it only moves forward, its result is
   determined by the bits it passes over, and the amount of data behind them matters to the delimiter header check alone.
   Zero extension, its converse, truncation, confinement and monotonicity of the reader (C07) are read off [deser_local]. *)
From Coq Require Import ZArith List Lia.
From PV Require Import Layout.Types Layout.Proofs.
From PV Require Import Serdes.Model Serdes.Bits Serdes.BitsProofs Serdes.ReaderProofs Serdes.SerProofs Serdes.DeserProofs.
Import ListNotations.
Open Scope Z_scope.

(* r2 sees everything r1 sees, at the same position, and has at least as much data left *)
Definition RS (r1 r2 : reader) : Prop :=
  rok r1 /\ rok r2 /\ roff r1 = roff r2 /\ (forall j, roff r1 <= j -> rbit r1 j = rbit r2 j) /\ rend r1 <= rend r2.

(* the same, with the bits compared at the positions in W only *)
Definition agree (W : Z -> Prop) (r1 r2 : reader) : Prop :=
  rok r1 /\ rok r2 /\ roff r1 = roff r2 /\ (forall j, roff r1 <= j -> W j -> rbit r1 j = rbit r2 j) /\ rend r1 <= rend r2.

Lemma RS_agree r1 r2 : RS r1 r2 <-> agree (fun _ => True) r1 r2.
Proof. unfold RS, agree. split; intros (A & B & C & D & E); auto 10. Qed.

Lemma agree_refl W r : rok r -> agree W r r.
Proof. intros H. unfold agree. auto 10 with zarith. Qed.

Lemma agree_adv W r1 r2 n : agree W r1 r2 -> 0 <= n -> agree W (r_adv r1 n) (r_adv r2 n).
Proof.
  intros (A & B & C & D & E) Hn. unfold agree. rewrite !roff_adv, !rend_adv.
  split; [apply rok_adv; assumption|]. split; [apply rok_adv; assumption|]. split; [lia|]. split; [|assumption].
  intros j Hj Wj. rewrite !rbit_adv. apply D; [lia|assumption].
Qed.

Lemma rbit_within_getbit r j : j < rend r -> rbit r j = getbit (rdata r) j.
Proof. intros H. unfold rbit. rewrite within_below_rend by assumption. reflexivity. Qed.

(* bounded sub-readers show nothing outside their window *)
Lemma agree_sub W r1 r2 n : rok r1 -> rok r2 -> roff r1 = roff r2 ->
  (forall j, roff r1 <= j < roff r1 + n -> getbit (rdata r1) j = getbit (rdata r2) j) ->
  agree W (fst (bounded_subreader r1 n)) (fst (bounded_subreader r2 n)).
Proof.
  intros A B C D. unfold bounded_subreader, agree, rok, rend, rbit, within. cbn [fst rdata roff rlimit rstart]. destruct A, B.
  repeat split; auto; try lia. intros j Hj _. rewrite <- C. destruct (j <? roff r1 + n) eqn:L; [|reflexivity]. apply D. lia.
Qed.

(* The outcomes o1, o2 of one decoder started on r1 and on a reader that agrees with r1 on W.
   A success on r1 ends further on, whatever W is; it is repeated on the other reader as soon as W covers every position
   below the end (the decoder does not look further), and the readers then agree on W again.
   A failure on r1 is repeated when the readers agree everywhere, unless it is the delimiter header check, which also
   looks at the amount of data left. *)
Definition related {A} (W : Z -> Prop) (r1 : reader) (o1 o2 : res (A * reader)) : Prop :=
  match o1 with
  | Ok (v, r1') => roff r1 <= roff r1' /\ rok r1' /\
      ((forall j, j < roff r1' -> W j) -> exists r2', o2 = Ok (v, r2') /\ agree W r1' r2')
  | Err e => (forall j, W j) -> e = EDelimHeader \/ o2 = Err e
  end.

Definition local {A} (D : reader -> res (A * reader)) : Prop :=
  forall W r1 r2, agree W r1 r2 -> related W r1 (D r1) (D r2).

Lemma local_mono {A} (D : reader -> res (A * reader)) r v r' : local D -> rok r -> D r = Ok (v, r') -> roff r <= roff r' /\ rok r'.
Proof. intros HD Hr E. specialize (HD (fun _ => True) r r (agree_refl _ r Hr)). rewrite E in HD. split; apply HD. Qed.

Lemma related_adv {A} W r1 r2 (v : A) n : agree W r1 r2 -> 0 <= n -> related W r1 (Ok (v, r_adv r1 n)) (Ok (v, r_adv r2 n)).
Proof.
  intros H Hn. cbn [related]. rewrite roff_adv. split; [lia|]. split; [apply rok_adv; [apply H|assumption]|].
  intros _. eexists. split; [reflexivity|]. apply agree_adv; assumption.
Qed.

Lemma local_ret {A} (v : A) : local (fun r => Ok (v, r)).
Proof. intros W r1 r2 H. cbn [related]. split; [lia|]. split; [apply H|]. eauto. Qed.

Lemma local_err {A} e : local (fun _ => @Err (A * reader) e).
Proof. intros W r1 r2 _ _. right. reflexivity. Qed.

Lemma local_align {A} (v : A) a : 1 <= a -> local (fun r => Ok (v, r_align_to r a)).
Proof.
  intros Ha W r1 r2 H. rewrite !r_align_to_adv by assumption. replace (roff r2) with (roff r1) by apply H.
  apply related_adv; [assumption|]. apply pad_len_range. assumption.
Qed.

Lemma local_skip {A} (v : A) n : 0 <= n -> local (fun r => Ok (v, snd (read_bits r n))).
Proof.
  intros Hn W r1 r2 H. rewrite (read_bits_adv r1 n), (read_bits_adv r2 n) by (assumption || apply H). apply related_adv; assumption.
Qed.

Lemma local_read_bits n : 0 <= n -> local (fun r => Ok (read_bits r n)).
Proof.
  intros Hn W r1 r2 H. pose proof H as (A & B & C & D & _).
  destruct (read_bits_spec r1 n (proj1 A) Hn (proj2 A)) as (S1 & R1 & T1).
  destruct (read_bits_spec r2 n (proj1 B) Hn (proj2 B)) as (S2 & R2 & T2).
  rewrite (surjective_pairing (read_bits r1 n)), (surjective_pairing (read_bits r2 n)), S1, S2. cbn [related]. rewrite roff_adv.
  split; [lia|]. split; [apply rok_adv; assumption|]. intros HW. exists (r_adv r2 n). split; [|apply agree_adv; assumption].
  do 2 f_equal. apply Z.bits_inj'. intros k Hk. destruct (Z.lt_ge_cases k n) as [Hlt|Hge].
  - rewrite T1, T2, <- C by (split; assumption). symmetry. apply D; [|apply HW]; lia.
  - rewrite (bits_above n _ k R1), (bits_above n _ k R2) by (split; assumption). reflexivity.
Qed.

(* sequencing; F need only be local for the values D can return *)
Lemma local_bind_on {A B} (D : reader -> res (A * reader)) (F : A -> reader -> res (B * reader)) :
  local D -> (forall r x r', rok r -> D r = Ok (x, r') -> local (F x)) ->
  local (fun r => match D r with Ok (x, r') => F x r' | Err e => Err e end).
Proof.
  intros HD HF W r1 r2 H. pose proof (HD W r1 r2 H) as S. destruct (D r1) as [[x ra]|e] eqn:E1.
  - specialize (HF r1 x ra (proj1 H) E1). destruct S as (M1 & Ra & S).
    (* the first step ends inside the positions the whole run passes over, because the second only moves forward *)
    assert (S' : (forall j, j < roff ra -> W j) -> exists rb, D r2 = Ok (x, rb) /\ related W ra (F x ra) (F x rb)).
    { intros HW. destruct (S HW) as (rb & E2 & Hab). eauto. }
    destruct (F x ra) as [[v r1']|e] eqn:E3.
    + destruct (local_mono _ _ _ _ HF Ra E3) as [M2 R2]. split; [lia|]. split; [assumption|]. intros HW.
      destruct S' as (rb & -> & T); [intros j Hj; apply HW; lia|]. apply T. assumption.
    + intros HW. destruct S' as (rb & -> & T); [intros j _; apply HW|]. apply T. assumption.
  - intros HW. destruct (S HW) as [->| ->]; auto.
Qed.

Lemma local_bind {A B} (D : reader -> res (A * reader)) (F : A -> reader -> res (B * reader)) :
  local D -> (forall x, local (F x)) -> local (fun r => match D r with Ok (x, r') => F x r' | Err e => Err e end).
Proof. intros HD HF. apply local_bind_on; auto. Qed.

Lemma local_pre {A} (g : reader -> reader) (D : reader -> res (A * reader)) :
  local (fun r => Ok (tt, g r)) -> local D -> local (fun r => D (g r)).
Proof. intros Hg HD. exact (local_bind _ (fun _ => D) Hg (fun _ => HD)). Qed.

Lemma local_read {A} n (F : Z -> reader -> res (A * reader)) : 0 <= n -> (forall x, 0 <= x -> local (F x)) ->
  local (fun r => let (x, r') := read_bits r n in F x r').
Proof.
  intros Hn HF. apply (local_bind_on _ F (local_read_bits n Hn)). intros r x r' Hr [= E]. apply HF.
  replace x with (fst (read_bits r n)) by (rewrite E; reflexivity). apply (read_bits_spec r n); (assumption || apply Hr).
Qed.

Lemma local_map {A B} (f : A -> B) (T : reader -> A * reader) :
  local (fun r => Ok (T r)) -> local (fun r => Ok (let (x, r') := T r in (f x, r'))).
Proof.
  intros HT W r1 r2 H. specialize (HT W r1 r2 H). unfold related in *. destruct (T r1) as [x1 ra], (T r2) as [x2 rb].
  destruct HT as (M & R & S). split; [assumption|]. split; [assumption|]. intros HW. destruct (S HW) as (r2' & [= -> ->] & Ag). eauto.
Qed.

Lemma local_read_bytes k : local (fun r => Ok (read_bytes k r)).
Proof.
  induction k as [|k IH]; cbn [read_bytes]; [apply local_ret|].
  (* a bind and a map, except that read_bytes has its constructor Ok outside the two lets *)
  pose proof (local_bind _ _ (local_read_bits 8 ltac:(lia)) (fun b => local_map (cons b) _ IH)) as L.
  intros W r1 r2 H. specialize (L W r1 r2 H). cbn beta iota in L. destruct (read_bits r1 8), (read_bits r2 8). exact L.
Qed.

(* the delimited step: the header check is the one place where the amount of data left is consulted *)
Lemma local_delim {A} (D : reader -> res (A * reader)) n : 0 <= n -> local D ->
  local (fun r => if remaining_bits r <? n then Err EDelimHeader
                  else let (sub, r') := bounded_subreader r n in match D sub with Ok (v, _) => Ok (v, r') | Err x => Err x end).
Proof.
  intros Hn HD W r1 r2 H. pose proof H as (A1 & A2 & C & Bt & E).
  destruct (Z.ltb_spec (remaining_bits r1) n) as [_|C1]; [intros _; left; reflexivity|].
  destruct (Z.ltb_spec (remaining_bits r2) n) as [C2|_]; [rewrite remaining_rend in *; lia|]. rewrite remaining_rend in C1.
  assert (S : (forall j, j < roff r1 + n -> W j) ->
              related (fun _ => True) (fst (bounded_subreader r1 n)) (D (fst (bounded_subreader r1 n))) (D (fst (bounded_subreader r2 n)))).
  { intros HW. apply HD, agree_sub; try assumption. intros j Hj.
    rewrite <- (rbit_within_getbit r1 j), <- (rbit_within_getbit r2 j) by lia. apply Bt; [|apply HW]; lia. }
  cbn [bounded_subreader fst] in *. destruct (D (mkR (rdata r1) _ _ _)) as [[v ra]|e]; cbn [related] in *.
  - rewrite roff_adv. split; [lia|]. split; [apply rok_adv; assumption|]. intros HW.
    destruct (S HW) as (_ & _ & S'). destruct S' as (rb & -> & _); [auto|]. eexists. split; [reflexivity|]. apply agree_adv; assumption.
  - intros HW. destruct (S (fun j _ => HW j)) as [->| ->]; auto.
Qed.

Lemma local_array e : local (deser e) -> forall n,
  local (fun r => match deser_elems (deser e) n r with
                  | Ok (vs, r') => match finish_array e vs with Ok v => Ok (v, r') | Err x => Err x end
                  | Err x => Err x
                  end).
Proof.
  intros He n. apply local_bind.
  - induction n as [|n IH]; cbn [deser_elems]; [apply local_ret|].
    apply local_bind; [exact He|]. intros v. apply local_bind; [exact IH|]. intros vs. apply local_ret.
  - intros vs. destruct (finish_array e vs); [apply local_ret|apply local_err].
Qed.

Lemma local_fields fs : Forall (fun f => wft (snd f) = true) fs -> Forall (fun f => local (deser (snd f))) fs ->
  local (deser_fields deser fs).
Proof.
  induction 1 as [|[[nm|] t] fr Hwt _ IH]; cbn [deser_fields snd] in *; intros HP; [apply local_ret|..];
    inversion_clear HP as [|? ? Ht Hr]; specialize (IH Hr).
  - apply local_bind; [apply (local_pre (fun r => r_align_to r (align t)) (deser t)); [apply local_align, align_pos|exact Ht]|].
    intros v. apply local_bind; [exact IH|]. intros vs. apply local_ret.
  - apply (local_pre (fun r => r_align_to r (align t)) (fun r => deser_fields deser fr (snd (read_bits r (void_width t)))));
      [apply local_align, align_pos|].
    apply (local_pre (fun r => snd (read_bits r (void_width t)))); [apply local_skip, void_width_nonneg, Hwt|exact IH].
Qed.

Lemma local_variant fs : Forall (fun f => local (deser (snd f))) fs -> forall k, local (deser_variant deser fs k).
Proof.
  induction 1 as [|f fr Hf _ IH]; intros k; cbn [deser_variant]; [apply local_err|]. destruct k; [exact Hf|apply IH].
Qed.

Theorem deser_local t : wft t = true -> local (deser t).
Proof.
  revert t. apply wft_ind; cbn [deser].
  - intros p Hp. pose proof (prim_width_pos p Hp). destruct p; cbn [deser_prim prim_width] in *; apply local_map;
      try (apply local_read_bits; lia). apply local_read_bytes.
  - intros w Hw. apply local_skip. lia.
  - intros e n _ _ IHe. apply local_array, IHe.
  - intros e n _ _ _ IHe. apply local_read; [apply prefix_width_nonneg, align_pos|].
    intros x _. destruct (n <? x); [apply local_err|]. apply local_array, IHe.
  - intros nm fs Hw IH. apply local_bind; [apply local_fields; assumption|]. intros vs. apply local_align, max_align_pos.
  - intros nm fs _ _ _ IH. apply local_read; [apply union_tag_width_nonneg|].
    intros x _. destruct (zlen fs <=? x); [apply local_err|].
    apply local_bind; [apply local_variant, IH|]. intros v. apply local_align, max_align_pos.
  - intros i ext _ _ _ _ _ IHi. apply local_read; [unfold header_width; lia|].
    intros x Hx. apply local_delim; [lia|exact IHi].
Qed.

Lemma local_RS {A} (D : reader -> res (A * reader)) r1 r2 : local D -> RS r1 r2 ->
  match D r1 with
  | Ok (v, r1') => exists r2', D r2 = Ok (v, r2') /\ RS r1' r2'
  | Err e => e = EDelimHeader \/ D r2 = Err e
  end.
Proof.
  intros HD H. apply RS_agree in H. specialize (HD _ _ _ H). destruct (D r1) as [[v r1']|e]; [|auto].
  destruct HD as (_ & _ & S). destruct S as (r2' & E & H'); [auto|]. apply RS_agree in H'. eauto.
Qed.

Theorem deser_sim t : wft t = true -> forall r1 r2 v r1', RS r1 r2 -> deser t r1 = Ok (v, r1') ->
  exists r2', deser t r2 = Ok (v, r2') /\ RS r1' r2'.
Proof. intros Hwf r1 r2 v r1' H E. pose proof (local_RS _ _ _ (deser_local t Hwf) H) as S. rewrite E in S. exact S. Qed.

Theorem deser_mono t : wft t = true -> forall r v r', rok r -> deser t r = Ok (v, r') -> roff r <= roff r' /\ rok r'.
Proof. intros Hwf r v r'. apply local_mono, deser_local, Hwf. Qed.

(* data followed by more data, seen from the start: the readers agree wherever the appended bits are not looked at or are 0 *)
Lemma agree_app (W : Z -> Prop) b x : bytes_ok b -> bytes_ok x -> (forall j, W j -> 8 * zlen b <= j -> getbit x (j - 8 * zlen b) = false) ->
  agree W (r_new b) (r_new (b ++ x)).
Proof.
  intros Hb Hx Hz. unfold agree, rok, r_new, rend, rbit, within. cbn [rdata roff rlimit rstart andb].
  repeat split; auto; try lia.
  - apply bytes_ok_app; assumption.
  - intros j Hj Wj. destruct (Z.lt_ge_cases j (8 * zlen b)).
    + symmetry. apply getbit_app_l. lia.
    + rewrite getbit_app_r, Hz by assumption. apply getbit_beyond. assumption.
  - rewrite zlen_app. pose proof (zlen_nonneg x). lia.
Qed.
