(* C07: implicit zero extension with its converse, and confinement of bounded sub-readers, at the top level. *)
From Coq Require Import ZArith List Lia.
From PV Require Import Layout.Types Layout.Proofs.
From PV Require Import Serdes.Model Serdes.Bits Serdes.BitsProofs Serdes.Spec Serdes.DeserProofs Serdes.Roundtrip Serdes.DeserSim.
Import ListNotations.
Open Scope Z_scope.

Lemma RS_zero_ext b n : bytes_ok b -> RS (r_new b) (r_new (b ++ zeros n)).
Proof. intros Hb. apply RS_agree, agree_app; [assumption|apply bytes_ok_zeros|]. intros. apply getbit_zeros. Qed.

(* b and b followed by zero bytes have the same outcome, errors included, except that b alone may fail the delimiter header check *)
Lemma zero_ext_outcome t b n hdr : wft t = true -> bytes_ok b ->
  match deserialize t b hdr with
  | Ok v => deserialize t (b ++ zeros n) hdr = Ok v
  | Err e => e = EDelimHeader \/ deserialize t (b ++ zeros n) hdr = Err e
  end.
Proof.
  intros Hwf Hb. destruct (hdr_ok t hdr) eqn:Hh; [|rewrite !deserialize_bad_hdr by exact Hh; auto].
  rewrite !deserialize_payload by exact Hh.
  pose proof (local_RS _ _ _ (deser_local _ (wft_payload t hdr Hwf)) (RS_zero_ext b n Hb)) as S.
  destruct (deser _ (r_new b)) as [[x r1']|e].
  - destruct S as (r2' & -> & _). reflexivity.
  - destruct S as [->| ->]; auto.
Qed.

Theorem zero_ext t b n hdr v : wft t = true -> bytes_ok b ->
  deserialize t b hdr = Ok v -> deserialize t (b ++ zeros n) hdr = Ok v.
Proof. intros Hwf Hb E. pose proof (zero_ext_outcome t b n hdr Hwf Hb) as S. rewrite E in S. exact S. Qed.

Theorem zero_ext_conv t b n hdr v : wft t = true -> bytes_ok b ->
  deserialize t (b ++ zeros n) hdr = Ok v -> deserialize t b hdr = Ok v \/ deserialize t b hdr = Err EDelimHeader.
Proof.
  intros Hwf Hb E. pose proof (zero_ext_outcome t b n hdr Hwf Hb) as S. destruct (deserialize t b hdr) as [v'|e].
  - rewrite S in E. auto.
  - destruct S as [->|S]; [auto|]. rewrite S in E. discriminate.
Qed.

(* a bounded sub-reader's result does not depend on anything outside its window *)
Theorem confinement t r1 r2 n v r1' : wft t = true -> rok r1 -> rok r2 -> roff r1 = roff r2 -> 0 <= n ->
  (forall j, roff r1 <= j < roff r1 + n -> getbit (rdata r1) j = getbit (rdata r2) j) ->
  deser t (fst (bounded_subreader r1 n)) = Ok (v, r1') ->
  exists r2', deser t (fst (bounded_subreader r2 n)) = Ok (v, r2').
Proof.
  intros Hwf A B C _ D E. pose proof (proj2 (RS_agree _ _) (agree_sub _ r1 r2 n A B C D)) as H.
  destruct (deser_sim t Hwf _ _ _ _ H E) as (r2' & F & _). eauto.
Qed.
