(* C14_zero_decode: a reader that sees only zero bits from its position on decodes the zero value of any type
   (0 / false / +0.0 / empty array / first variant / header 0 - recursively), at any offset, with or without limit. *)
From Coq Require Import ZArith List Lia ZifyBool.
From PV Require Import Layout.Types Layout.Proofs Layout.ProofsSpec.
From PV Require Import Serdes.Float Serdes.Model Serdes.Bits Serdes.BitsProofs Serdes.ReaderProofs Serdes.SerProofs
  Serdes.DeserProofs.
Import ListNotations.
Open Scope Z_scope.

Definition zeros_ahead (r : reader) : Prop := forall j, roff r <= j -> rbit r j = false.
Definition ZR (r : reader) : Prop := rok r /\ zeros_ahead r.

Lemma ZR_adv r n : ZR r -> 0 <= n -> ZR (r_adv r n).
Proof.
  intros [A B] Hn. split; [apply rok_adv; assumption|]. intros j Hj. rewrite rbit_adv. apply B. rewrite roff_adv in Hj. lia.
Qed.

Lemma ZR_align r a : ZR r -> 1 <= a -> ZR (r_align_to r a).
Proof. intros H Ha. rewrite r_align_to_adv by assumption. apply ZR_adv; [assumption|]. apply pad_len_range. assumption. Qed.

Lemma ZR_read r n : ZR r -> 0 <= n -> read_bits r n = (0, r_adv r n) /\ ZR (r_adv r n).
Proof.
  intros H Hn. split; [|apply ZR_adv; assumption]. destruct H as [A B].
  rewrite <- (Z.mod_0_l (2 ^ n)) by (apply Z.pow_nonzero; lia). apply read_value; auto.
  intros k Hk. rewrite Z.testbit_0_l. apply B. lia.
Qed.

Lemma ZR_sub r : ZR r -> ZR (fst (bounded_subreader r 0)).
Proof. intros [[A B] _]. split; [split; assumption|]. intros j Hj. apply sub_beyond. cbn [bounded_subreader fst roff] in Hj. lia. Qed.

Lemma zeros_ahead_pad r n : ahead r (zero_bits n) -> zeros_ahead (r_adv r (zlen (zero_bits n))) -> zeros_ahead r.
Proof.
  intros (_ & Hs & _) Hz j Hj. destruct (Z.lt_ge_cases j (roff r + zlen (zero_bits n))).
  - replace j with (roff r + (j - roff r)) by lia. rewrite Hs by lia. apply bit_at_zero_bits.
  - apply (Hz j). rewrite roff_adv. assumption.
Qed.

Lemma fwiden_0 w : w = 16 \/ w = 32 \/ w = 64 -> fwiden w 0 = 0.
Proof. intros [ -> | [ -> | -> ] ]; reflexivity. Qed.

Lemma ZR_read_bytes k : forall r, ZR r -> exists r', read_bytes k r = (repeat 0 k, r') /\ ZR r'.
Proof.
  induction k as [|k IH]; intros r H; cbn [read_bytes repeat]; [eauto|].
  destruct (ZR_read r 8 H ltac:(lia)) as [E H1]. rewrite E. destruct (IH _ H1) as (r' & E' & H'). rewrite E'. eauto.
Qed.

Lemma from_bytes_le_zeros k : from_bytes_le (repeat 0 k) = 0.
Proof. induction k as [|k IH]; cbn [repeat from_bytes_le]; [reflexivity|rewrite IH; reflexivity]. Qed.

Definition zero_ok (t : ty) : Prop := forall r, ZR r -> exists r', deser t r = Ok (default_value t, r') /\ ZR r'.

Lemma zero_elems e : zero_ok e -> forall n r, ZR r ->
  exists r', deser_elems (deser e) n r = Ok (repeat (default_value e) n, r') /\ ZR r'.
Proof.
  intros He. induction n as [|n IH]; intros r H; cbn [deser_elems repeat].
  - eauto.
  - destruct (He r H) as (r1 & E1 & H1). rewrite E1. destruct (IH r1 H1) as (r2 & E2 & H2). rewrite E2. eauto.
Qed.

Lemma zero_fields fs : Forall (fun f => tok (snd f) /\ zero_ok (snd f)) fs ->
  forall r, ZR r -> exists r', deser_fields deser fs r = Ok (default_fields default_value fs, r') /\ ZR r'.
Proof.
  induction 1 as [|[nm t] fr [[Hwt _] Ht] _ IH]; intros r H; cbn [deser_fields default_fields snd] in *.
  - eauto.
  - pose proof (ZR_align r (align t) H (align_pos t)) as Ha. destruct nm as [nm|].
    + destruct (Ht _ Ha) as (r1 & E1 & H1). rewrite E1. destruct (IH r1 H1) as (r2 & E2 & H2). rewrite E2. eauto.
    + destruct (ZR_read _ _ Ha (void_width_nonneg t Hwt)) as [E H1]. rewrite E. apply (IH _ H1).
Qed.

Theorem zero_decode : forall t, tok t -> zero_ok t.
Proof.
  apply tok_ind; unfold zero_ok; cbn [deser default_value].
  - intros p Hwf r H. pose proof (prim_width_pos p Hwf) as Hp.
    destruct p as [ | wd c | wd | wd c | | ]; cbn [deser_prim prim_width] in *.
    + destruct (ZR_read r 1 H ltac:(lia)) as [E H1]. rewrite E. eauto.
    + destruct (ZR_read r wd H ltac:(lia)) as [E H1]. rewrite E. eauto.
    + destruct (ZR_read r wd H ltac:(lia)) as [E H1]. rewrite E, shiftl_1 by lia.
      assert (0 < 2 ^ (wd - 1)) by (apply Z.pow_pos_nonneg; lia). replace (2 ^ (wd - 1) <=? 0) with false by lia. eauto.
    + destruct (ZR_read_bytes (Z.to_nat (wd / 8)) r H) as (r' & E & H'). rewrite E, from_bytes_le_zeros.
      simpl in Hwf. rewrite fwiden_0 by lia. eauto.
    + destruct (ZR_read r 8 H ltac:(lia)) as [E H1]. rewrite E. eauto.
    + destruct (ZR_read r 8 H ltac:(lia)) as [E H1]. rewrite E. eauto.
  - intros wd Hw r H. destruct (ZR_read r wd H ltac:(lia)) as [E H1]. rewrite E. eauto.
  - intros e n _ _ Hu _ IHe r H. destruct (zero_elems e IHe (Z.to_nat n) r H) as (r1 & E1 & H1). rewrite E1.
    unfold finish_array. rewrite Hu. eauto.
  - intros e n _ _ Hn _ _ P2 _ r H. destruct (ZR_read r (prefix_width (align e) n) H ltac:(lia)) as [E H1]. rewrite E.
    replace (n <? 0) with false by lia. cbn [Z.to_nat deser_elems].
    replace (finish_array e []) with (Ok (VList [])) by (unfold finish_array; destruct (is_utf8 e); reflexivity). eauto.
  - intros nm fs _ _ IH r H. destruct (zero_fields fs IH r H) as (r1 & E1 & H1). rewrite E1.
    eexists; split; [reflexivity|]. apply ZR_align; [assumption|]. rewrite max_align_fields. lia.
  - intros nm fs _ Hn _ _ T2 IH r H. destruct (ZR_read r (union_tag_width fs) H ltac:(lia)) as [E H0]. rewrite E.
    replace (zlen fs <=? 0) with false by lia. cbn [Z.to_nat].
    destruct IH as [|f fr [_ Hf] _]; [destruct (Hn eq_refl)|]. cbn [deser_variant].
    destruct (Hf _ H0) as (r1 & E1 & H1). rewrite E1.
    eexists; split; [reflexivity|]. apply ZR_align; [assumption|]. rewrite max_align_fields. lia.
  - intros i ext _ _ _ Hc _ IHi r H. rewrite (header_width_delim i Hc).
    destruct (ZR_read r 32 H ltac:(lia)) as [E H0]. rewrite E. change (0 * 8) with 0.
    rewrite remaining_rend. replace (Z.max 0 (rend (r_adv r 32) - roff (r_adv r 32)) <? 0) with false by lia.
    cbn [bounded_subreader]. destruct (IHi _ (ZR_sub _ H0)) as (r1 & E1 & _).
    cbn [bounded_subreader fst] in E1. rewrite E1.
    eexists; split; [reflexivity|]. apply ZR_adv; [assumption|lia].
Qed.
