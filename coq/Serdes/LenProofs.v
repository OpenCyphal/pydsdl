(* C06_length_in_bls: the length of the representation of a valid value is one of the Specification's lengths of
   its type (LenSpec), hence an element of the bit length set. *)
From Coq Require Import ZArith List Bool Lia ZifyBool.
From PV Require Import Util.Sumset BLS.Model BLS.Den BLS.Proofs Layout.Types Layout.Spec Layout.Proofs Layout.ProofsSpec.
From PV Require Import Serdes.Model Serdes.Bits Serdes.BitsProofs Serdes.Spec Serdes.SerProofs Serdes.DeserProofs
  Serdes.Roundtrip.
Import ListNotations.
Open Scope Z_scope.

(* padding a length is padding up to the same boundary from any position congruent modulo 8 *)
Lemma pad_from a o x : a = 1 \/ a = 8 -> o mod 8 = 0 -> pad a x = x + pad_len a (o + x).
Proof. intros [ -> | -> ] H; unfold pad, pad_len; Z.to_euclidean_division_equations; lia. Qed.

Lemma pad_pad_len a x : a = 1 \/ a = 8 -> pad a x = x + pad_len a x.
Proof. intros H. apply (pad_from a 0 x H eq_refl). Qed.

Lemma zlen_enc_prim p v : prim_ok p = true -> valid_prim p v = true -> zlen (enc_prim p v) = prim_width p.
Proof.
  intros Hp Hv. pose proof (prim_width_pos p Hp) as Hw.
  destruct p as [ | wd c | wd | wd c | | ]; unfold valid_prim in Hv; unfold enc_prim, canon_prim; cbn [prim_width] in *;
    try (destruct (as_int v); [apply zlen_low_bits_Z; lia|discriminate]).
  - destruct (bool_of v); [reflexivity|discriminate].
  - destruct v; try discriminate. apply zlen_low_bits_Z. lia.
Qed.

Definition len_ok (t : ty) : Prop := forall v o, validb t v = true -> o mod align t = 0 -> LenSpec t (zlen (enc t v o)).

Lemma enc_elems_lens e : len_ok e -> keeps_align e -> forall vs o, forallb (validb e) vs = true -> o mod align e = 0 ->
  exists ys, length ys = length vs /\ Forall (LenSpec e) ys /\ zlen (enc_elems (enc e) vs o) = zsum ys.
Proof.
  intros He Ka. induction vs as [|v r IH]; intros o Hv Ho; cbn [enc_elems].
  - exists []. repeat split; auto.
  - cbn [forallb] in Hv. apply andb_prop in Hv. destruct Hv as [Hv1 Hv2].
    destruct (IH (o + zlen (enc e v o)) Hv2 (Ka v o Ho)) as (ys & L & F & S).
    exists (zlen (enc e v o) :: ys). repeat split.
    + simpl. lia.
    + constructor; [apply He; assumption|assumption].
    + rewrite zlen_app, S. reflexivity.
Qed.

(* laying out the fields from relative offset rel (the structure starts at a multiple of 8) *)
Lemma enc_fields_thread fs : Forall (fun f => len_ok (snd f)) fs -> all_fields_ok wft fs = true -> struct_fields_ok serializable fs = true ->
  forall vs o rel, o mod 8 = 0 -> valid_fields validb fs vs = true ->
  thread_ok LenSpec spec_align fs rel (rel + zlen (enc_fields enc fs vs (o + rel))).
Proof.
  induction 1 as [|[nm t] fr Ht Hfr IH]; intros Hwf Hsz vs o rel Ho Hv; cbn [enc_fields thread_ok valid_fields] in *.
  - change (zlen (@nil bool)) with 0. lia.
  - unfold all_fields_ok in Hwf. cbn [forallb snd] in Hwf. apply andb_prop in Hwf. destruct Hwf as [Hwt Hwr].
    unfold struct_fields_ok in Hsz. cbn [forallb fst snd] in Hsz. apply andb_prop in Hsz. destruct Hsz as [Hst Hsr].
    cbn [snd] in *. set (p := zero_bits (pad_len (align t) (o + rel))).
    (* the padding in front of the field is the Specification's padding of the relative offset *)
    assert (Ep : pad (spec_align t) rel = rel + zlen p).
    { subst p. rewrite zlen_pad, <- (align_is_spec t Hwt) by apply align_pos. apply pad_from; [apply align_values|exact Ho]. }
    rewrite Ep. destruct nm as [nm|].
    + destruct vs as [|v vs']; [discriminate|]. apply andb_prop in Hv. destruct Hv as [Hv1 Hv2]. set (b := enc t _ (o + rel + zlen p)). exists (zlen b). split.
      * apply Ht; [exact Hv1|]. subst p. rewrite zlen_pad by apply align_pos. apply pad_len_aligned, align_pos.
      * rewrite !zlen_app, !Z.add_assoc. specialize (IH Hwr Hsr vs' o (rel + zlen p + zlen b) Ho Hv2). rewrite !Z.add_assoc in IH. exact IH.
    + destruct t; try discriminate. cbn [void_width LenSpec]. simpl in Hwt. exists w. split; [reflexivity|].
      rewrite !zlen_app, (zlen_zero_bits w), !Z.add_assoc by lia. specialize (IH Hwr Hsr vs o (rel + zlen p + w) Ho Hv). rewrite !Z.add_assoc in IH. exact IH.
Qed.

Lemma enc_variant_ok fs : Forall (fun f => len_ok (snd f)) fs ->
  forall k v o, valid_variant validb fs k v = true -> o mod 8 = 0 -> variant_ok LenSpec fs (zlen (enc_variant enc fs k v o)).
Proof.
  induction 1 as [|f fr Hf Hfr IH]; intros k v o Hv Ho; cbn [valid_variant enc_variant variant_ok] in *; [discriminate|].
  destruct k as [|k]; [left; apply Hf; [assumption|apply mod8_align; assumption]|right; apply IH; assumption].
Qed.

Lemma len_le_extent i ext x : wft (TDelim i ext) = true -> LenSpec i x -> x <= ext.
Proof.
  intros Hwf Li. destruct (wft_delim i ext Hwf) as (Hwi & Hc & _ & _ & Hext).
  apply (bls_is_spec i Hwi) in Li. destruct (wf_bls i Hwi) as [Wf _]. pose proof (proj2 (omax_ok (bls i) Wf) _ Li).
  replace (extent i) with (omax (bls i)) in Hext by (destruct i; try discriminate; reflexivity). lia.
Qed.

Theorem enc_len_spec : forall t, tok t -> len_ok t.
Proof.
  apply tok_ind; unfold len_ok; cbn [validb enc LenSpec align].
  - intros p Hp v o Hv _. apply zlen_enc_prim; assumption.
  - intros wd Hw v o _ _. apply zlen_zero_bits. lia.
  - intros e n [Hwe _] _ _ Hn IHe v o Hv Ho. destruct v; try discriminate. rewrite andb_true_iff, Z.eqb_eq in Hv. destruct Hv as [Hl Hvs].
    destruct (enc_elems_lens e IHe (enc_aligned e Hwe) vs o Hvs Ho) as (ys & L & F & S).
    exists ys. repeat split; auto. unfold zlen in Hl. lia.
  - intros e n [Hwe _] _ Hn Hb P1 P2 IHe v o Hv Ho. destruct v; try discriminate. rewrite !andb_true_iff in Hv. destruct Hv as [[Hl Hvs] _].
    destruct (enc_elems_lens e IHe (enc_aligned e Hwe) vs _ Hvs (align_add e _ _ Ho P1)) as (ys & L & F & S).
    exists ys. repeat split; auto. { unfold zlen in Hl. lia. }
    rewrite zlen_app, zlen_low_bits_Z, S, <- (prefix_width_eq e n) by lia. reflexivity.
  - intros nm fs [Hwf [Hsz|Hsz]] _ IH v o Hv Ho; [|discriminate]. destruct v; try discriminate. rewrite max_align_fields in *.
    pose proof (enc_fields_thread fs (Forall_impl _ (fun f H => proj2 H) IH) Hwf Hsz vs o 0 Ho Hv) as T.
    rewrite Z.add_0_r in T. cbn [Z.add] in T.
    eexists. split; [exact T|]. rewrite zlen_app, zlen_pad by lia. symmetry. apply pad_from; auto.
  - intros nm fs _ Hn Hb T1 T2 IH v o Hv Ho. destruct v; try discriminate. rewrite !andb_true_iff in Hv. destruct Hv as [Hk Hvv].
    rewrite max_align_fields in *.
    pose proof (enc_variant_ok fs (Forall_impl _ (fun f H => proj2 H) IH) (Z.to_nat k) v _ Hvv (mod8_add _ _ Ho T1)) as V.
    eexists. split; [exact V|]. rewrite <- (union_tag_eq fs) by (unfold zlen in *; lia).
    rewrite !zlen_app, zlen_low_bits_Z, zlen_pad by lia. symmetry. apply pad_from; auto.
  - intros i ext [Hwf _] _ _ Hc A8 IHi v o Hv Ho. apply andb_prop in Hv. destruct Hv as [Hv _].
    rewrite (header_width_delim i Hc). pose proof (enc_composite_mod8 i v Hc) as M8. pose proof (zlen_nonneg (enc i v 0)).
    pose proof (len_le_extent i ext _ Hwf (IHi v 0 Hv ltac:(rewrite A8; reflexivity))) as Hle.
    exists (zlen (enc i v 0) / 8). split; [split; [apply Z.div_pos; lia|apply Z.div_le_mono; lia]|].
    rewrite zlen_app, zlen_low_bits_Z, Z.mul_comm, div8_mul8 by (assumption || lia). reflexivity.
Qed.

Theorem length_in_bls t v hdr bytes :
  wft t = true -> serializable t = true -> is_composite t = true -> hdr_ok t hdr = true -> validb t v = true ->
  serialize t v hdr = Ok bytes -> Den (bls (payload_type t hdr)) (8 * zlen bytes).
Proof.
  intros Hwf Hsz Hc Hh Hv Hs.
  destruct (serialize_spec t v hdr Hwf Hc Hh Hv) as (bytes' & E & (_ & L & _)). rewrite Hs in E. inversion E; subst bytes'.
  rewrite L, spec_enc_payload. pose proof (payload_tok t hdr Hwf Hsz Hc) as Tk. apply (bls_is_spec _ (proj1 Tk)).
  apply (enc_len_spec _ Tk); [apply payload_valid; exact Hv|]. apply Z.mod_0_l. pose proof (align_pos (payload_type t hdr)). lia.
Qed.

(* the inner representation of a delimited type never exceeds the extent: with an extent below 2^35 bits the header
   always fits (the only semantic side condition in validb) *)
Lemma inner_le_extent i ext v : wft (TDelim i ext) = true -> serializable i = true -> validb i v = true -> zlen (enc i v 0) <= ext.
Proof.
  intros Hwf Hsz Hv. destruct (wft_delim i ext Hwf) as (Hwi & _ & A8 & _). apply (len_le_extent i ext _ Hwf).
  apply (enc_len_spec i (conj Hwi (or_introl Hsz)) v 0 Hv). rewrite A8. reflexivity.
Qed.
