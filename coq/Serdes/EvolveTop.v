(* C14 at the top level: cross-revision decoding of whole byte strings; zero bytes decode to the zero value. *)
From Coq Require Import List Lia.
From PV Require Import Layout.Types Layout.ProofsSpec.
From PV Require Import Serdes.Model Serdes.Bits Serdes.BitsProofs Serdes.ReaderProofs Serdes.Spec Serdes.Roundtrip
  Serdes.Evolve Serdes.ZeroDecode.
Import ListNotations.
Open Scope Z_scope.

(* the byte string is the representation of the type itself (a delimited type with its header, a sealed type without) *)
Definition framed (t : ty) (hdr : bool) : bool := match t with TDelim _ _ => hdr | _ => negb hdr end.

Lemma framed_payload t hdr : framed t hdr = true -> hdr_ok t hdr = true /\ payload_type t hdr = t.
Proof. destruct t; cbn [framed hdr_ok payload_type]; intros H; auto. rewrite H. auto. Qed.

Lemma evolves_framed t t' hdr : evolves t t' = true -> framed t hdr = framed t' hdr.
Proof. destruct t, t'; try discriminate; try (destruct t; discriminate); auto. Qed.

(* written with t, read with t' (older or newer revision of nested delimited structures), whatever follows is ignored *)
Theorem cross_version t t' v hdr bytes extra :
  wft t = true -> is_composite t = true -> framed t hdr = true -> validb t v = true ->
  wft t' = true -> serializable t' = true -> evolves t t' = true ->
  bytes_ok extra -> serialize t v hdr = Ok bytes ->
  deserialize t' (bytes ++ extra) hdr = Ok (conv t t' (canon t v)).
Proof.
  intros Hwf Hc Hf Hv Hwf' Hsz' Hev Oe Hs. destruct (framed_payload t hdr Hf) as [Hh Ep].
  rewrite (evolves_framed t t' hdr Hev) in Hf. destruct (framed_payload t' hdr Hf) as [Hh' Ep'].
  pose proof (deserialize_serialized t t' v hdr bytes extra Hwf Hc Hh Hv Hh') as G. rewrite Ep, Ep' in G.
  exact (G (conj Hwf' (or_introl Hsz')) Hev Oe Hs).
Qed.

(* zero bytes (also: no bytes at all) decode to the zero value of any type *)
Theorem zero_bytes_decode t n hdr : wft t = true -> serializable t = true -> is_composite t = true -> hdr_ok t hdr = true ->
  deserialize t (zeros n) hdr = Ok (default_value t).
Proof.
  intros Hwf Hsz Hc Hh. rewrite deserialize_payload by assumption.
  assert (Z0 : ZR (r_new (zeros n))).
  { split; [split; [apply bytes_ok_zeros|cbn [roff r_new]; lia]|]. intros j Hj. unfold rbit, within. cbn [rlimit r_new rdata andb].
    apply getbit_zeros. }
  destruct (zero_decode _ (payload_tok t hdr Hwf Hsz Hc) _ Z0) as (r' & E & _). rewrite E.
  destruct t; try reflexivity. destruct hdr; reflexivity.
Qed.
