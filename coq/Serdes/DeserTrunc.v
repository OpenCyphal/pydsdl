(* C07_truncation in general: if deserialization of b succeeds and ends inside b, anything appended to b is ignored
   (also for representations that serialize would never produce, e.g. with non-zero padding bits). *)
From Coq Require Import ZArith List Lia.
From PV Require Import Layout.Types.
From PV Require Import Serdes.Model Serdes.Bits Serdes.Spec Serdes.Roundtrip Serdes.DeserSim.
Import ListNotations.
Open Scope Z_scope.

(* the offset at which deserialize stops *)
Definition consumed (t : ty) (data : list Z) (hdr : bool) : option Z :=
  let go t' := match deser t' (r_new data) with Ok (_, r') => Some (roff r') | Err _ => None end in
  match t with
  | TDelim i _ => if hdr then go t else go i
  | _ => if hdr then None else go t
  end.

Lemma consumed_payload t d hdr : hdr_ok t hdr = true ->
  consumed t d hdr = match deser (payload_type t hdr) (r_new d) with Ok (_, r') => Some (roff r') | Err _ => None end.
Proof. destruct t, hdr; try discriminate; reflexivity. Qed.

Theorem truncation t b hdr v c junk : wft t = true -> bytes_ok b -> bytes_ok junk ->
  deserialize t b hdr = Ok v -> consumed t b hdr = Some c -> c <= 8 * zlen b ->
  deserialize t (b ++ junk) hdr = Ok v.
Proof.
  intros Hwf Hb Hj. destruct (hdr_ok t hdr) eqn:Hh; [|rewrite deserialize_bad_hdr by exact Hh; discriminate].
  rewrite !deserialize_payload, consumed_payload by exact Hh.
  (* the two readers agree below the end of b, and the run on b stays there *)
  assert (H : agree (fun j => j < 8 * zlen b) (r_new b) (r_new (b ++ junk))) by (apply agree_app; [assumption..|lia]).
  pose proof (deser_local _ (wft_payload t hdr Hwf) _ _ _ H) as S.
  destruct (deser _ (r_new b)) as [[x r1']|]; [|discriminate]. intros [= ->] [= <-] Hle.
  destruct S as (_ & _ & S). destruct S as (r2' & -> & _); [lia|reflexivity].
Qed.
