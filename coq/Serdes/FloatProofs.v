(* The float casts on bit patterns (binary16/32/64).  The three formats differ only in their field widths, so everything is
   proved for a width [w] that satisfies [format] (one sign bit, at least two exponent bits, at least one mantissa bit);
   the powers of two stay symbolic.  In order: how a pattern splits into its fields and what [fdecode] makes of them; the
   range of the patterns [fencode] and [fcast] produce; decoding and encoding are inverse to each other, and a value widened
   to binary64 and cast back is unchanged; the saturated cast never yields an infinity from a finite value. *)
From Coq Require Import ZArith Bool Lia.
From PV Require Import Layout.Types Serdes.Float.
Open Scope Z_scope.

Lemma pow2_pos k : 0 <= k -> 0 < 2 ^ k.
Proof. intros. apply Z.pow_pos_nonneg; lia. Qed.

Lemma pow2_mono a b : 0 <= a <= b -> 2 ^ a <= 2 ^ b.
Proof. intros. apply Z.pow_le_mono_r; lia. Qed.

Lemma pow2_lt_inv a b : 0 <= b -> 2 ^ a < 2 ^ b -> a < b.
Proof. intros Hb H. apply (Z.pow_lt_mono_r_iff 2); lia. Qed.

Lemma pow2_succ k : 0 <= k -> 2 ^ (k + 1) = 2 * 2 ^ k.
Proof. exact (Z.pow_succ_r 2 k). Qed.

(* the leading bit of m, scaled *)
Lemma scaled_bounds m j : 0 < m -> 0 <= j -> 2 ^ (Z.log2 m + j) <= m * 2 ^ j < 2 ^ (Z.log2 m + 1 + j).
Proof.
  intros Hm Hj. destruct (Z.log2_spec m Hm) as [Lo Hi]. pose proof (Z.log2_nonneg m). pose proof (pow2_pos j Hj).
  change (Z.succ (Z.log2 m)) with (Z.log2 m + 1) in Hi.
  rewrite (Z.pow_add_r 2 (Z.log2 m) j), (Z.pow_add_r 2 (Z.log2 m + 1) j) by lia. split; [apply Z.mul_le_mono_nonneg_r; lia|apply Z.mul_lt_mono_pos_r; assumption].
Qed.

Lemma rne_exact m j : 0 <= j -> rne_shift m j = m * 2 ^ j.
Proof. intros. unfold rne_shift. replace (0 <=? j) with true by lia. reflexivity. Qed.

Lemma rne_shift_0 m : rne_shift m 0 = m.
Proof. apply Z.mul_1_r. Qed.

(* a negative shift rounds down, or up when the remainder is at least half *)
Lemma rne_shift_neg m j : j < 0 -> let d := 2 ^ (- j) in
  0 < d /\ (rne_shift m j = m / d \/ rne_shift m j = m / d + 1 /\ d <= 2 * (m mod d)).
Proof.
  intros Hj d. split; [apply pow2_pos; lia|]. unfold rne_shift. replace (0 <=? j) with false by lia. fold d.
  destruct (2 * (m mod d) <? d) eqn:C; [auto|]. destruct (d <? 2 * (m mod d)); [right; lia|].
  destruct (Z.even (m / d)); [auto|right; lia].
Qed.

Lemma rne_shift_nonneg m k : 0 <= m -> 0 <= rne_shift m k.
Proof.
  intros Hm. destruct (Z.le_gt_cases 0 k) as [Hk | Hk].
  - rewrite rne_exact by assumption. apply Z.mul_nonneg_nonneg; [assumption|]. apply Z.pow_nonneg. lia.
  - destruct (rne_shift_neg m k Hk) as (D & R). pose proof (Z.div_pos m _ Hm D). lia.
Qed.

(* three digits: u in {0,1} above E below Q above M below P *)
Lemma digits_exist P Q b : 0 < P -> 0 < Q -> 0 <= b < 2 * (Q * P) ->
  exists u E M, b = Z.b2z u * (Q * P) + E * P + M /\ 0 <= E < Q /\ 0 <= M < P.
Proof.
  intros HP HQ Hb.
  pose proof (Z.div_mod b P ltac:(lia)) as D1. pose proof (Z.mod_pos_bound b P HP) as B1.
  pose proof (Z.div_mod (b / P) Q ltac:(lia)) as D2. pose proof (Z.mod_pos_bound (b / P) Q HQ) as B2.
  set (M := b mod P) in *. set (E := (b / P) mod Q) in *. set (u := b / P / Q) in *.
  rewrite D2 in D1. clearbody M E u.
  assert (U : u = 0 \/ u = 1) by nia.
  exists (u =? 1), E, M. split; [|split; assumption]. destruct U as [-> | ->]; simpl Z.b2z; lia.
Qed.

Lemma digits P Q u E M : 0 <= E < Q -> 0 <= M < P ->
  let b := u * (Q * P) + E * P + M in b / (Q * P) = u /\ (b / P) mod Q = E /\ b mod P = M.
Proof.
  intros HE HM b. subst b.
  pose proof (Z.mul_nonneg_nonneg E P ltac:(lia) ltac:(lia)). pose proof (Z.mul_le_mono_nonneg_r (E + 1) Q P ltac:(lia) ltac:(lia)).
  split.
  - rewrite <- Z.add_assoc, Z.div_add_l, Z.div_small by lia. apply Z.add_0_r.
  - rewrite Z.mul_assoc, <- Z.mul_add_distr_r, Z.div_add_l, (Z.div_small M P), Z.add_0_r by lia.
    rewrite (Z.add_comm (u * Q) E), (Z.add_comm (_ * P) M), !Z.mod_add by lia.
    split; apply Z.mod_small; assumption.
Qed.

Definition format (w : Z) : Prop := w = 1 + f_ebits w + f_mbits w /\ 2 <= f_ebits w /\ 1 <= f_mbits w.

Lemma format_widths w : w = 16 \/ w = 32 \/ w = 64 -> format w.
Proof. intros [-> | [-> | ->]]; cbv; intuition discriminate. Qed.

Definition fnonneg (x : fval) : Prop := match x with FFin _ m _ => 0 <= m | _ => True end.

Lemma fdecode_nonneg w b : fnonneg (fdecode w b).
Proof.
  unfold fdecode. pose proof (Z.mod_pos_bound b (2 ^ f_mbits w)).
  assert (0 < 2 ^ f_mbits w) by (apply pow2_pos; unfold f_mbits; destruct (w =? 16), (w =? 32); lia).
  destruct (_ =? 2 ^ f_ebits w - 1); [destruct (_ =? 0); exact I|].
  destruct (_ =? 0); simpl; lia.
Qed.

Lemma fclamp_nonneg w x : fnonneg x -> fnonneg (fclamp w x).
Proof.
  intros Hx. destruct x as [| |s m e]; simpl; auto. destruct (mag_gt m e (f_max_m w) (f_max_e w)); simpl; auto.
  pose proof (pow2_pos (f_mbits w + 1)). unfold f_max_m, f_mbits in *. destruct (w =? 16), (w =? 32); lia.
Qed.

(* Decoding a pattern and encoding it again is the identity, and so is encoding a decoded value and decoding it again;
   widening to binary64 and narrowing back is the identity (every non-NaN value of a format is a fixed point of the cast, in
   both cast modes); hence fwiden (fcast (fwiden bits)) = fwiden bits, which makes decoded float fields canonical
   (C07_valid_fixpoint).
   The argument: a decoded finite value m * 2^e has the shape [wshape]; a value of that shape is encoded by laying out its
   fields; [fencode] and the clamp see only the value, not the pair (m, e) chosen for it; and a value of the shape of a
   narrow format, rescaled, has the shape of binary64. *)
(* the shape of a finite value decoded from a w-bit pattern *)
Definition wshape (w : Z) (m e : Z) : Prop :=
  let mb := f_mbits w in let bias := 2 ^ (f_ebits w - 1) - 1 in
  0 <= m < 2 ^ (mb + 1) /\ e <= bias - mb /\
  ((m < 2 ^ mb /\ e = 1 - bias - mb) \/ (2 ^ mb <= m /\ 1 - bias - mb <= e)).

Lemma wshape_lo w m e : wshape w m e -> 1 - (2 ^ (f_ebits w - 1) - 1) - f_mbits w <= e.
Proof. intros (_ & _ & [[_ ->] | [_ H]]); [apply Z.le_refl|exact H]. Qed.

(* a decoded value has that shape, and encoding it gives the pattern back *)
Definition dec_enc_stmt (w : Z) : Prop := forall bits, 0 <= bits < 2 ^ w ->
  match fdecode w bits with FFin s m e => fencode w (FFin s m e) = bits /\ wshape w m e | FInf s => fencode w (FInf s) = bits | FNaN => True end.

Lemma log2_exact m k : 0 <= k -> 2 ^ k <= m < 2 ^ (k + 1) -> Z.log2 m = k.
Proof. exact (Z.log2_unique m k). Qed.

Lemma ltb_mul_r a b c : 0 < c -> (a * c <? b * c) = (a <? b).
Proof. intros. destruct (Z.ltb_spec a b), (Z.ltb_spec (a * c) (b * c)); try reflexivity; nia. Qed.

(* the pattern depends on the value m * 2^e only *)
Lemma rne_shift_scale m j k : 0 <= k -> rne_shift (m * 2 ^ k) (j - k) = rne_shift m j.
Proof.
  intros Hk. pose proof (pow2_pos k Hk) as K. unfold rne_shift. destruct (0 <=? j) eqn:J.
  - destruct (0 <=? j - k) eqn:JK.
    + rewrite <- Z.mul_assoc, <- Z.pow_add_r by lia. do 2 f_equal. lia.
    + pose proof (pow2_pos (- (j - k)) ltac:(lia)) as D.
      replace (m * 2 ^ k) with (m * 2 ^ j * 2 ^ (- (j - k)))
        by (rewrite <- Z.mul_assoc, <- Z.pow_add_r by lia; do 2 f_equal; lia).
      rewrite Z.div_mul, Z.mod_mul by lia. change (2 * 0) with 0. rewrite (proj2 (Z.ltb_lt 0 _) D). reflexivity.
  - pose proof (pow2_pos (- j) ltac:(lia)) as D.
    replace (0 <=? j - k) with false by lia. replace (- (j - k)) with (- j + k) by lia. rewrite Z.pow_add_r by lia.
    rewrite Z.div_mul_cancel_r, Z.mul_mod_distr_r by lia. rewrite !(Z.mul_assoc 2), !ltb_mul_r by assumption. reflexivity.
Qed.

Lemma fencode_scale w s m e k : 0 <= m -> 0 <= k -> fencode w (FFin s (m * 2 ^ k) (e - k)) = fencode w (FFin s m e).
Proof.
  intros Hm Hk. pose proof (pow2_pos k Hk) as K. unfold fencode. destruct (m <=? 0) eqn:C.
  - replace (m * 2 ^ k <=? 0) with true by nia. reflexivity.
  - replace (m * 2 ^ k <=? 0) with false by nia.
    rewrite Z.log2_mul_pow2 by lia. replace (k + Z.log2 m + (e - k)) with (Z.log2 m + e) by lia.
    set (pe := Z.max _ _). replace (e - k - (pe - f_mbits w)) with (e - (pe - f_mbits w) - k) by lia.
    rewrite rne_shift_scale by assumption. reflexivity.
Qed.

(* clamping leaves values of the format alone *)
Lemma mag_gt_rescaled_le Mx Ex m e k : 0 <= m <= Mx -> e <= Ex -> 0 <= k -> mag_gt (m * 2 ^ k) (e - k) Mx Ex = false.
Proof.
  intros Hm He Hk. unfold mag_gt. pose proof (pow2_pos k Hk) as T.
  destruct (Ex <=? e - k) eqn:C.
  - assert (k = 0) by lia. assert (e = Ex) by lia. subst k e. replace (Ex - 0 - Ex) with 0 by lia. change (2 ^ 0) with 1. lia.
  - replace (Ex - (e - k)) with ((Ex - e) + k) by lia. rewrite Z.pow_add_r by lia.
    pose proof (pow2_pos (Ex - e) ltac:(lia)) as U.
    assert (m * 2 ^ k <= Mx * 2 ^ k) by (apply Z.mul_le_mono_nonneg_r; lia). nia.
Qed.

Lemma clamp_noop w s m e k : wshape w m e -> 0 <= k ->
  fclamp w (FFin s (m * 2 ^ k) (e - k)) = FFin s (m * 2 ^ k) (e - k).
Proof.
  intros (Hm & He & _) Hk. unfold fclamp. rewrite mag_gt_rescaled_le; [reflexivity| | |assumption]; unfold f_max_m, f_max_e; lia.
Qed.

Lemma fencode_zero w s e : fencode w (FFin s 0 e) = f_sign w s.
Proof. reflexivity. Qed.

(* Saturation.
   A magnitude m * 2^e that does not exceed the largest finite one, (2^(mb+1) - 1) * 2^(bias - mb), has its leading bit at
   bias or below.  Below bias the exponent field stays under the top even if rounding carries; at bias the bound on the
   magnitude is a bound on the mantissa before rounding, and rounding does not step over an integer. *)
(* m * 2^j <= N, for j of either sign, without leaving the integers *)
Definition le_scaled (m j N : Z) : Prop := (0 <= j -> m * 2 ^ j <= N) /\ (j < 0 -> m <= N * 2 ^ (- j)).

Lemma mag_gt_false m e M E : mag_gt m e M E = false -> le_scaled m (e - E) M.
Proof.
  unfold mag_gt, le_scaled. destruct (E <=? e) eqn:C; intros H; split; intros; try lia.
  replace (- (e - E)) with (E - e) by lia. lia.
Qed.

Lemma mag_gt_irrefl M E : mag_gt M E M E = false.
Proof. unfold mag_gt. rewrite Z.leb_refl, Z.sub_diag. change (2 ^ 0) with 1. lia. Qed.

(* rounding a quotient that does not exceed the integer N does not exceed N *)
Lemma rne_le m j N : 0 <= m -> 0 <= N -> le_scaled m j N -> rne_shift m j <= N.
Proof.
  intros Hm HN [Hp Hn]. destruct (Z.le_gt_cases 0 j) as [Hj | Hj]; [rewrite rne_exact by assumption; auto|].
  specialize (Hn Hj). destruct (rne_shift_neg m j Hj) as (D & R).
  set (d := 2 ^ (- j)) in *. pose proof (Z.div_mod m d ltac:(lia)) as DM. pose proof (Z.mod_pos_bound m d D) as RB.
  set (q := m / d) in *. set (r := m mod d) in *. clearbody q r d.
  assert (q <= N) by (apply Z.mul_le_mono_pos_l with (p := d); lia).
  destruct R as [-> | [-> R]]; [assumption|]. assert (q < N) by (apply Z.mul_lt_mono_pos_l with (p := d); lia). lia.
Qed.

(* the position of the leading bit against a bound that is a power of two *)
Lemma le_scaled_log2 m j n : 0 < m -> 0 <= n -> le_scaled m j (2 ^ n - 1) -> Z.log2 m + j < n.
Proof.
  intros Hm Hn [Hp Hneg]. destruct (Z.le_gt_cases 0 j) as [Hj | Hj].
  - destruct (scaled_bounds m j Hm Hj) as [S _]. specialize (Hp Hj). apply pow2_lt_inv; lia.
  - destruct (Z.log2_spec m Hm) as [S _]. specialize (Hneg Hj). pose proof (pow2_pos (- j) ltac:(lia)) as D.
    pose proof (proj1 (Z.mul_lt_mono_pos_r (2 ^ (- j)) (2 ^ n - 1) (2 ^ n) D) ltac:(lia)).
    assert (T : 2 ^ Z.log2 m < 2 ^ (n + - j)) by (rewrite Z.pow_add_r by lia; lia).
    apply pow2_lt_inv in T; lia.
Qed.

Lemma log2_le_scaled m j n : 0 < m -> 0 <= n -> Z.log2 m + 1 + j <= n -> le_scaled m j (2 ^ n).
Proof.
  intros Hm Hn H. pose proof (Z.log2_nonneg m) as L0. split; intros Hj.
  - destruct (scaled_bounds m j Hm Hj) as [_ S]. pose proof (pow2_mono (Z.log2 m + 1 + j) n ltac:(lia)). lia.
  - destruct (Z.log2_spec m Hm) as [_ S]. rewrite <- Z.pow_add_r by lia.
    pose proof (pow2_mono (Z.succ (Z.log2 m)) (n + - j) ltac:(lia)). lia.
Qed.

(* ---------- the formats ---------- *)
(* [lia] pays for every term 2 ^ x it meets (it looks for the sign of each), so the lemmas about a format are proved with
   names for its powers of two: P1, P = 2^mb, H, Q = 2^eb are variables; the equations that define them are kept out of
   [lia]'s sight in [names] and used only where a definition of the model is unfolded; the relations between them are
   hypotheses.  [format_exit] discharges all of it. *)
Definition names (w P1 P H Q : Z) : Prop :=
  2 ^ (f_mbits w - 1) = P1 /\ 2 ^ f_mbits w = P /\ 2 ^ (f_mbits w + 1) = 2 * P /\
  2 ^ (f_ebits w - 1) = H /\ 2 ^ f_ebits w = Q /\ 2 ^ (w - 1) = Q * P /\ 2 ^ w = 2 * (Q * P).

Lemma format_exit w (F : format w) (T : Prop) :
  (forall P1 P H Q, names w P1 P H Q -> 0 < P1 -> P = 2 * P1 -> 2 <= H -> Q = 2 * H -> T) -> T.
Proof.
  intros K. destruct F as (Hw & He & Hm).
  apply (K (2 ^ (f_mbits w - 1)) (2 ^ f_mbits w) (2 ^ (f_ebits w - 1)) (2 ^ f_ebits w)).
  - repeat split.
    + apply pow2_succ. lia.
    + rewrite <- Z.pow_add_r by lia. f_equal. lia.
    + rewrite <- Z.pow_add_r, <- pow2_succ by lia. f_equal. lia.
  - apply pow2_pos. lia.
  - rewrite <- pow2_succ by lia. f_equal. lia.
  - apply (pow2_mono 1). lia.
  - rewrite <- pow2_succ by lia. f_equal. lia.
Qed.

Section Format.
Variable w : Z.
Hypothesis F : format w.
Variables P1 P H Q : Z.
Hypotheses (N : names w P1 P H Q) (HP1 : 0 < P1) (HP : P = 2 * P1) (HH : 2 <= H) (HQ : Q = 2 * H).

Lemma fmt_P1 : 2 ^ (f_mbits w - 1) = P1. Proof using N. apply N. Qed.
Lemma fmt_P : 2 ^ f_mbits w = P. Proof using N. apply N. Qed.
Lemma fmt_P2 : 2 ^ (f_mbits w + 1) = 2 * P. Proof using N. apply N. Qed.
Lemma fmt_H : 2 ^ (f_ebits w - 1) = H. Proof using N. apply N. Qed.
Lemma fmt_Q : 2 ^ f_ebits w = Q. Proof using N. apply N. Qed.
Lemma fmt_S : 2 ^ (w - 1) = Q * P. Proof using N. apply N. Qed.
Lemma fmt_W : 2 ^ w = 2 * (Q * P). Proof using N. apply N. Qed.

Local Set Default Proof Using "All".
Local Notation mb := (f_mbits w).
Local Notation bias := (H - 1).

Lemma f_sign_b2z s : f_sign w s = Z.b2z s * (Q * P).
Proof. unfold f_sign. rewrite fmt_S. destruct s; simpl Z.b2z; lia. Qed.

Lemma f_sign_cases s : f_sign w s = 0 \/ f_sign w s = Q * P.
Proof. rewrite f_sign_b2z. destruct s; simpl Z.b2z; lia. Qed.

Lemma fields bits : 0 <= bits < 2 ^ w -> exists s E M, bits = f_sign w s + E * P + M /\ 0 <= E < Q /\ 0 <= M < P.
Proof.
  rewrite fmt_W. intros Hb. destruct (digits_exist P Q bits) as (s & E & M & D); [lia|lia|exact Hb|].
  exists s, E, M. rewrite f_sign_b2z. exact D.
Qed.

Lemma fdecode_fields s E M : 0 <= E < Q -> 0 <= M < P ->
  fdecode w (f_sign w s + E * P + M) =
  if E =? Q - 1 then (if M =? 0 then FInf s else FNaN)
  else if E =? 0 then FFin s M (1 - bias - mb) else FFin s (P + M) (E - bias - mb).
Proof.
  intros HE HM. pose proof F as (_ & He & Hm). destruct (digits P Q (Z.b2z s) E M HE HM) as (Es & Ee & Em).
  unfold fdecode. rewrite f_sign_b2z, Z.testbit_odd, Z.shiftr_div_pow2, Z.pow_add_r, fmt_Q, fmt_P, fmt_H, Es, Ee, Em by lia.
  destruct s; reflexivity.
Qed.

(* an exponent field below all-ones keeps the pattern below the infinity *)
Lemma below_inf E M : E <= Q - 2 -> M < P -> E * P + M < f_inf w.
Proof.
  intros HE HM. unfold f_inf. rewrite fmt_Q, fmt_P.
  pose proof (Z.mul_le_mono_nonneg_r (E + 1) (Q - 1) P ltac:(lia) ltac:(lia)). lia.
Qed.

Lemma f_inf_nan_bounds : 0 <= f_inf w <= f_nan w /\ f_nan w < Q * P.
Proof.
  unfold f_nan, f_inf. rewrite fmt_Q, fmt_P, fmt_P1. pose proof (Z.mul_nonneg_nonneg (Q - 1) P ltac:(lia) ltac:(lia)). lia.
Qed.

Lemma fencode_bounds x : fnonneg x -> 0 <= fencode w x < 2 ^ w.
Proof.
  intros Hx. rewrite fmt_W. destruct f_inf_nan_bounds as (I0 & I1).
  (* a sign bit plus a number below it *)
  assert (S : forall s r, 0 <= r <= f_nan w -> 0 <= f_sign w s + r < 2 * (Q * P))
    by (intros s r Hr; destruct (f_sign_cases s) as [-> | ->]; lia).
  destruct x as [|s|s m e]; cbn [fencode]; rewrite ?fmt_P, ?fmt_H.
  - apply (S false (f_nan w)). lia.
  - apply S. lia.
  - destruct (m <=? 0); [rewrite <- (Z.add_0_r (f_sign w s)); apply S; lia|]. apply S.
    split; [apply Z.min_glb; [|apply I0]|etransitivity; [apply Z.le_min_r|apply I0]].
    pose proof (Z.le_max_r (Z.log2 m + e) (1 - bias)). set (pe := Z.max (Z.log2 m + e) (1 - bias)) in *.
    pose proof (rne_shift_nonneg m (e - (pe - mb)) Hx) as R.
    destruct (_ <? P) eqn:C; [assumption|]. apply Z.ltb_ge in C.
    pose proof (Z.mul_nonneg_nonneg (pe + bias) P ltac:(lia) ltac:(lia)). lia.
Qed.

(* [wshape] over the names, its two constructors and the least exponent *)
Lemma wshape_eq m e : wshape w m e <->
  0 <= m < 2 * P /\ e <= bias - mb /\ ((m < P /\ e = 1 - bias - mb) \/ (P <= m /\ 1 - bias - mb <= e)).
Proof. unfold wshape. rewrite fmt_P2, fmt_P, fmt_H. reflexivity. Qed.

Lemma wshape_sub m : 0 <= m < P -> wshape w m (1 - bias - mb).
Proof. intros Hm. apply wshape_eq. split; [lia|]. split; [lia|]. left. lia. Qed.

Lemma wshape_nor m e : P <= m < 2 * P -> 1 - bias - mb <= e <= bias - mb -> wshape w m e.
Proof. intros Hm He. apply wshape_eq. split; [lia|]. split; [lia|]. right. lia. Qed.

Lemma wshape_least m e : wshape w m e -> 1 - bias - mb <= e.
Proof. intros Sh. apply wshape_lo in Sh. rewrite fmt_H in Sh. exact Sh. Qed.

(* no rounding, no overflow: the exponent and mantissa fields are written as they are *)
Lemma fencode_shape s m e : wshape w m e ->
  fencode w (FFin s m e) = f_sign w s + (if m <? P then m else (e + mb + bias) * P + (m - P)).
Proof.
  intros Sh. apply wshape_eq in Sh. destruct Sh as (Hm & He & Hs). pose proof F as (_ & _ & M1).
  unfold fencode. rewrite fmt_P, fmt_H. destruct (m <=? 0) eqn:C0; [replace (m <? P) with true by lia; lia|].
  destruct Hs as [[Hsub ->] | [Hnor He']].
  - assert (Z.log2 m < mb) by (apply Z.log2_lt_pow2; [lia|rewrite fmt_P; exact Hsub]).
    rewrite Z.max_r, Z.sub_diag, rne_shift_0 by lia. replace (m <? P) with true by lia.
    pose proof (below_inf 0 m ltac:(lia) Hsub). rewrite Z.min_l by lia. reflexivity.
  - rewrite (log2_exact m mb) by (rewrite ?fmt_P, ?fmt_P2; lia).
    rewrite Z.max_l by lia. replace (e - (mb + e - mb)) with 0 by lia. rewrite rne_shift_0.
    replace (m <? P) with false by lia.
    pose proof (below_inf (mb + e + bias) (m - P) ltac:(lia) ltac:(lia)). rewrite Z.min_l by lia. f_equal. ring.
Qed.

Lemma fdecode_fencode_n s m e : wshape w m e -> fdecode w (fencode w (FFin s m e)) = FFin s m e.
Proof.
  intros Sh. rewrite (fencode_shape s m e Sh). pose proof (wshape_least m e Sh) as Hlo.
  apply wshape_eq in Sh. destruct Sh as (Hm & He & Hs).
  destruct (Z.ltb_spec m P) as [C | C].
  - destruct Hs as [[_ ->] | [Hn _]]; [|lia]. clear Hlo He.
    replace (f_sign w s + m) with (f_sign w s + 0 * P + m) by ring. rewrite fdecode_fields by lia.
    destruct (Z.eqb_spec 0 (Q - 1)); [lia|reflexivity].
  - clear Hs. assert (HE : 1 <= e + mb + bias <= Q - 2) by lia.
    rewrite Z.add_assoc, fdecode_fields by lia.
    destruct (Z.eqb_spec (e + mb + bias) (Q - 1)); [lia|]. destruct (Z.eqb_spec (e + mb + bias) 0); [lia|].
    f_equal; [apply Zplus_minus|rewrite !Z.add_simpl_r; reflexivity].
Qed.

Lemma fdecode_fencode_inf_n s : fdecode w (fencode w (FInf s)) = FInf s.
Proof.
  cbn [fencode]. unfold f_inf. rewrite fmt_Q, fmt_P, <- (Z.add_0_r (_ + _ * P)), fdecode_fields by lia.
  rewrite Z.eqb_refl. reflexivity.
Qed.

Lemma fdecode_fencode_nan_n : fdecode w (fencode w FNaN) = FNaN.
Proof.
  change (fencode w FNaN) with (f_sign w false + f_inf w + 2 ^ (mb - 1)). unfold f_inf.
  rewrite fmt_Q, fmt_P, fmt_P1, fdecode_fields by lia. rewrite Z.eqb_refl. destruct (Z.eqb_spec P1 0); [lia|reflexivity].
Qed.

Lemma fdecode_fencode_zero s e : fdecode w (fencode w (FFin s 0 e)) = FFin s 0 (1 - bias - mb).
Proof. rewrite fencode_zero, <- (fencode_zero w s (1 - bias - mb)). apply fdecode_fencode_n, wshape_sub. lia. Qed.

(* the canonical pair of a value whose leading bit lies in the normal range *)
Lemma wshape_normal m e : 0 < m -> Z.log2 m <= mb -> 1 - bias <= Z.log2 m + e <= bias ->
  wshape w (m * 2 ^ (mb - Z.log2 m)) (e - (mb - Z.log2 m)).
Proof.
  intros Hm HL Hp. pose proof (scaled_bounds m (mb - Z.log2 m) Hm ltac:(lia)) as S.
  replace (Z.log2 m + (mb - Z.log2 m)) with mb in S by lia.
  replace (Z.log2 m + 1 + (mb - Z.log2 m)) with (mb + 1) in S by lia. rewrite fmt_P, fmt_P2 in S. apply wshape_nor; [exact S|lia].
Qed.

Lemma fdecode_fencode_normal s m e : 0 < m -> Z.log2 m <= mb -> 1 - bias <= Z.log2 m + e <= bias ->
  fdecode w (fencode w (FFin s m e)) = FFin s (m * 2 ^ (mb - Z.log2 m)) (e - (mb - Z.log2 m)).
Proof.
  intros Hm HL Hp. rewrite <- (fencode_scale w s m e (mb - Z.log2 m)) by lia. apply fdecode_fencode_n, wshape_normal; assumption.
Qed.

Lemma dec_enc_n : dec_enc_stmt w.
Proof.
  intros bits Hb. destruct (fields bits Hb) as (s & E & M & -> & HE & HM). rewrite fdecode_fields by assumption.
  destruct (Z.eqb_spec E (Q - 1)) as [-> | N1]; [destruct (Z.eqb_spec M 0) as [-> | _]; [|exact I]|destruct (Z.eqb_spec E 0) as [-> | N0]].
  - cbn [fencode]. unfold f_inf. rewrite fmt_Q, fmt_P. ring.
  - pose proof (wshape_sub M HM) as Sh. split; [|exact Sh].
    rewrite (fencode_shape _ _ _ Sh), (proj2 (Z.ltb_lt M P)) by apply HM. ring.
  - assert (Sh : wshape w (P + M) (E - bias - mb)) by (apply wshape_nor; lia). split; [|exact Sh].
    rewrite (fencode_shape _ _ _ Sh), (proj2 (Z.ltb_ge (P + M) P)) by lia. ring.
Qed.

Lemma sat_finite_n s m e : 0 <= m -> mag_gt m e (f_max_m w) (f_max_e w) = false ->
  fencode w (FFin s m e) < f_sign w s + f_inf w.
Proof.
  intros Hm Hg. apply mag_gt_false in Hg. unfold f_max_m, f_max_e in Hg. rewrite fmt_P2, fmt_H in Hg. pose proof F as (_ & E2 & M1).
  unfold fencode. rewrite fmt_P, fmt_H. destruct (m <=? 0) eqn:C0; [pose proof (below_inf 0 0 ltac:(lia) ltac:(lia)); lia|].
  apply Z.add_lt_mono_l, Z.min_lt_iff. left.
  assert (HL : Z.log2 m + (e - (bias - mb)) < mb + 1) by (apply le_scaled_log2; [lia|lia|rewrite fmt_P2; exact Hg]).
  pose proof (Z.le_max_l (Z.log2 m + e) (1 - bias)) as Pl. pose proof (Z.le_max_r (Z.log2 m + e) (1 - bias)) as Pr.
  assert (Pu : Z.max (Z.log2 m + e) (1 - bias) <= bias) by (apply Z.max_lub; lia).
  set (pe := Z.max _ _) in *. clearbody pe. set (j := e - (pe - mb)).
  (* a carry out of the mantissa field is possible, no more *)
  assert (R2 : rne_shift m j <= 2 * P).
  { rewrite <- fmt_P2. apply rne_le; [lia|lia|]. apply log2_le_scaled; subst j; lia. }
  destruct (Z.ltb_spec (rne_shift m j) P) as [C | C]; [pose proof (below_inf 0 _ ltac:(lia) C); lia|].
  destruct (Z.eq_dec pe bias) as [-> | Np].
  - (* top binade: the bound on the magnitude is the bound on the mantissa *)
    assert (rne_shift m j <= 2 * P - 1) by (apply rne_le; [lia|lia|exact Hg]).
    pose proof (below_inf (bias + bias) (rne_shift m j - P) ltac:(lia) ltac:(lia)). lia.
  - pose proof (below_inf (pe + bias + 1) (rne_shift m j - 2 * P) ltac:(lia) ltac:(lia)). lia.
Qed.

End Format.

Lemma fdecode_fencode w s m e : format w -> wshape w m e -> fdecode w (fencode w (FFin s m e)) = FFin s m e.
Proof. intros F. apply (format_exit w F). intros. eapply fdecode_fencode_n; eassumption. Qed.

Lemma fdecode_fencode_inf w s : format w -> fdecode w (fencode w (FInf s)) = FInf s.
Proof. intros F. apply (format_exit w F). intros. eapply fdecode_fencode_inf_n; eassumption. Qed.

Lemma fdecode_fencode_nan w : format w -> fdecode w (fencode w FNaN) = FNaN.
Proof. intros F. apply (format_exit w F). intros. eapply fdecode_fencode_nan_n; eassumption. Qed.

Lemma sat_finite w s m e : format w -> 0 <= m -> mag_gt m e (f_max_m w) (f_max_e w) = false ->
  fencode w (FFin s m e) < f_sign w s + f_inf w.
Proof. intros F. apply (format_exit w F). intros. eapply sat_finite_n; eassumption. Qed.

Lemma dec_enc w : w = 16 \/ w = 32 \/ w = 64 -> dec_enc_stmt w.
Proof. intros Hw. apply format_widths in Hw. apply (format_exit w Hw). intros. eapply dec_enc_n; eassumption. Qed.

Lemma fencode_range w x : w = 16 \/ w = 32 \/ w = 64 -> fnonneg x -> 0 <= fencode w x < 2 ^ w.
Proof. intros Hw. apply format_widths in Hw. apply (format_exit w Hw). intros. eapply fencode_bounds; eassumption. Qed.

Lemma fcast_range c w b : w = 16 \/ w = 32 \/ w = 64 -> 0 <= fcast c w b < 2 ^ w.
Proof.
  intros Hw. apply fencode_range; [assumption|].
  destruct c; [apply fclamp_nonneg|]; apply fdecode_nonneg.
Qed.

(* a value of a narrow format, rescaled, is a value of a wider one *)
Lemma wshape_lift w W m e : format w -> format W -> f_ebits w <= f_ebits W -> f_mbits w <= f_mbits W ->
  wshape w m e -> exists k, 0 <= k /\ wshape W (m * 2 ^ k) (e - k).
Proof.
  intros F FW Heb Hmb Sh. pose proof (wshape_lo w m e Sh) as Hlo. destruct Sh as (Hm & He & _).
  pose proof F as (_ & E2 & M1). pose proof FW as (_ & E2W & M1W).
  pose proof (pow2_mono (f_ebits w - 1) (f_ebits W - 1) ltac:(lia)) as HB.
  apply (format_exit W FW). intros P1 P H Q N HP1 HP HH HQ. rewrite (fmt_H W P1 P H Q N) in HB.
  (* the shift that brings the exponent to the least one of W *)
  set (k0 := e - (1 - (H - 1) - f_mbits W)). assert (K0 : 0 <= k0) by (subst k0; lia).
  assert (E0 : e - k0 = 1 - (H - 1) - f_mbits W) by (subst k0; lia).
  destruct (Z.eq_dec m 0) as [-> | Hm0].
  - exists k0. split; [assumption|]. rewrite Z.mul_0_l, E0. eapply (wshape_sub W); try eassumption. lia.
  - assert (L1 : Z.log2 m < f_mbits w + 1) by (apply Z.log2_lt_pow2; lia). pose proof (Z.log2_nonneg m) as L0.
    destruct (Z.le_gt_cases (1 - (H - 1)) (Z.log2 m + e)) as [Cn | Cs].
    + exists (f_mbits W - Z.log2 m). split; [lia|]. eapply (wshape_normal W); try eassumption; lia.
    + exists k0. split; [assumption|]. rewrite E0. eapply (wshape_sub W); try eassumption.
      pose proof (scaled_bounds m k0 ltac:(lia) K0) as S.
      pose proof (pow2_mono (Z.log2 m + 1 + k0) (f_mbits W) ltac:(subst k0; lia)) as S'. rewrite (fmt_P W P1 P H Q N) in S'. lia.
Qed.

Lemma widths_le_64 w : w = 16 \/ w = 32 \/ w = 64 -> f_ebits w <= f_ebits 64 /\ f_mbits w <= f_mbits 64.
Proof. intros [-> | [-> | ->]]; cbv; intuition discriminate. Qed.

Lemma format_64 : format 64.
Proof. apply format_widths. auto. Qed.

(* every NaN pattern is cast to the canonical quiet NaN of the format; infinities pass in both modes *)
Lemma fcast_nan c w b : fdecode 64 b = FNaN -> fcast c w b = f_nan w.
Proof. unfold fcast. intros ->. destruct c; reflexivity. Qed.

Lemma fcast_inf c w b s : fdecode 64 b = FInf s -> fcast c w b = fencode w (FInf s).
Proof. unfold fcast. intros ->. destruct c; reflexivity. Qed.

Lemma cast_nan c w : w = 16 \/ w = 32 \/ w = 64 -> fcast c w (fencode 64 FNaN) = f_nan w.
Proof. intros _. apply fcast_nan, fdecode_fencode_nan, format_64. Qed.

Lemma cast_inf c w s : w = 16 \/ w = 32 \/ w = 64 -> fcast c w (fencode 64 (FInf s)) = fencode w (FInf s).
Proof. intros _. apply fcast_inf, fdecode_fencode_inf, format_64. Qed.

(* C06_cast_float_representable_partial: every value of the field's format (NaN aside: one canonical NaN) survives the cast unchanged *)
Theorem cast_representable w c bits : w = 16 \/ w = 32 \/ w = 64 -> 0 <= bits < 2 ^ w -> fdecode w bits <> FNaN ->
  fcast c w (fwiden w bits) = bits.
Proof.
  intros Hw Hb Hn. unfold fwiden. pose proof (dec_enc w Hw bits Hb) as D.
  destruct (fdecode w bits) as [|s|s m e]; [congruence| |].
  - rewrite cast_inf by assumption. exact D.
  - (* widening yields the pair (m * 2^k, e - k) that has the shape of binary64; the clamp leaves it alone and
       narrowing sees the value of (m, e) *)
    destruct D as [D Sh]. destruct (widths_le_64 w Hw) as [He Hm].
    destruct (wshape_lift w 64 m e (format_widths w Hw) format_64 He Hm Sh) as (k & Hk & Sh64).
    assert (M0 : 0 <= m) by apply Sh.
    unfold fcast. rewrite <- (fencode_scale 64 s m e k M0 Hk), (fdecode_fencode 64 _ _ _ format_64 Sh64).
    replace (match c with Sat => fclamp w _ | Trunc => _ end) with (FFin s (m * 2 ^ k) (e - k))
      by (destruct c; [symmetry; apply clamp_noop; assumption|reflexivity]).
    rewrite fencode_scale by assumption. exact D.
Qed.

Theorem fwiden_idem w c bits : w = 16 \/ w = 32 \/ w = 64 -> 0 <= bits < 2 ^ w ->
  fwiden w (fcast c w (fwiden w bits)) = fwiden w bits.
Proof.
  intros Hw Hb. destruct (fdecode w bits) as [|s|s m e] eqn:E.
  2, 3: rewrite cast_representable; auto; congruence.
  unfold fwiden at 2 3. rewrite E, cast_nan by assumption.
  unfold fwiden. change (f_nan w) with (fencode w FNaN). rewrite fdecode_fencode_nan by (apply format_widths, Hw). reflexivity.
Qed.

Theorem sat_never_inf w b s m e : w = 16 \/ w = 32 \/ w = 64 -> fdecode 64 b = FFin s m e ->
  fcast Sat w b < f_sign w s + f_inf w.
Proof.
  intros Hw H. apply format_widths in Hw. unfold fcast. rewrite H. pose proof (fdecode_nonneg 64 b) as N. rewrite H in N.
  unfold fclamp. destruct (mag_gt m e (f_max_m w) (f_max_e w)) eqn:C; apply sat_finite; try assumption.
  - pose proof (pow2_pos (f_mbits w + 1) ltac:(destruct Hw; lia)). unfold f_max_m. lia.
  - apply mag_gt_irrefl.
Qed.
