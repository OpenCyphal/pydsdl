(* C07 (first clause): whatever deserialize returns is valid for the type and canonical, hence a fixed point of
   serialize -> deserialize.  For all types whose extents are below 2^35 bits (so that every delimiter header fits its
   32 bits); float fields are covered by FloatProofs.fwiden_idem. *)
From Coq Require Import ZArith List Bool Lia ZifyBool.
From PV Require Import Layout.Types Layout.Proofs Layout.ProofsSpec.
From PV Require Import Serdes.Float Serdes.Utf8 Serdes.Model Serdes.Bits Serdes.BitsProofs Serdes.ReaderProofs Serdes.Spec
  Serdes.SerProofs Serdes.DeserProofs Serdes.Roundtrip Serdes.CanonProofs Serdes.FloatProofs.
Import ListNotations.
Open Scope Z_scope.

(* every extent below 2^35 bits *)
Fixpoint plain (t : ty) : bool :=
  match t with
  | TPrim _ | TVoid _ => true
  | TFix e _ | TVar e _ => plain e
  | TStruct _ fs | TUnion _ fs => forallb (fun f => plain (snd f)) fs
  | TDelim i ext => plain i && (ext <? 2 ^ 35)
  end.

Definition good (t : ty) (v : val) : Prop := validb t v = true /\ canon t v = v /\ v <> VOmit.

Definition dec_ok (t : ty) : Prop := forall r v r', rok r -> deser t r = Ok (v, r') -> good t v /\ rok r'.

Lemma read_ok r n : rok r -> 0 <= n -> exists x, read_bits r n = (x, r_adv r n) /\ 0 <= x < 2 ^ n /\ rok (r_adv r n).
Proof.
  intros [A B] Hn. destruct (read_bits_spec r n A Hn B) as (S1 & R & _). exists (fst (read_bits r n)). split; [|split; [exact R|]].
  - rewrite <- S1. apply surjective_pairing.
  - apply rok_adv; [split; assumption|assumption].
Qed.

Lemma read_bytes_ok k : forall r, rok r -> exists bs r1, read_bytes k r = (bs, r1) /\ bytes_ok bs /\ length bs = k /\ rok r1.
Proof.
  induction k as [|k IH]; intros r Hr; cbn [read_bytes].
  - exists [], r. repeat split; [constructor|apply Hr..].
  - destruct (read_ok r 8 Hr ltac:(lia)) as (b & E & R & Hr1). rewrite E. destruct (IH _ Hr1) as (bs & r2 & E' & A & B & C). rewrite E'.
    exists (b :: bs), r2. repeat split; [constructor; [exact R|assumption]|simpl; lia|apply C..].
Qed.

Lemma good_int p x : match p with PUInt _ _ | PSInt _ | PByte | PUtf8 => True | _ => False end -> cast_int p x = x -> good (TPrim p) (VInt x).
Proof. intros Hp Hc. unfold good. cbn [validb canon]. unfold valid_prim, canon_prim. destruct p; try destruct Hp; cbn [as_int]; rewrite Hc; repeat split; discriminate. Qed.

Lemma dec_prim p : prim_ok p = true -> dec_ok (TPrim p).
Proof.
  intros Hwf r v r' Hr E. cbn [deser] in E. inversion E as [E']. clear E. pose proof (prim_width_pos p Hwf) as Hp.
  destruct p as [ | wd c | wd | wd c | | ]; cbn [deser_prim prim_width] in *.
  - destruct (read_ok r 1 Hr ltac:(lia)) as (x & Ex & R & Hr1). rewrite Ex in E'. inversion E'; subst. split; [|assumption]. repeat split; discriminate.
  - destruct (read_ok r wd Hr ltac:(lia)) as (x & Ex & R & Hr1). rewrite Ex in E'. inversion E'; subst. split; [|assumption].
    apply good_int; [exact I|]. apply cast_in_range. exact R.
  - destruct (read_ok r wd Hr ltac:(lia)) as (x & Ex & R & Hr1). rewrite Ex in E'. inversion E'; subst. split; [|assumption].
    apply good_int; [exact I|]. apply cast_in_range. simpl in Hwf. rewrite !shiftl_1 by lia. pose proof (Z.pow_succ_r 2 (wd - 1) ltac:(lia)) as D. replace (Z.succ (wd - 1)) with wd in D by lia.
    assert (0 < 2 ^ (wd - 1)) by (apply Z.pow_pos_nonneg; lia). destruct (2 ^ (wd - 1) <=? x) eqn:C; lia.
  - simpl in Hwf. assert (Hw : wd = 16 \/ wd = 32 \/ wd = 64) by lia.
    destruct (read_bytes_ok (Z.to_nat (wd / 8)) r Hr) as (bs & r1 & Eb & Ob & Lb & Hr1). rewrite Eb in E'. injection E' as <- <-.
    split; [|exact Hr1].
    assert (Rx : 0 <= from_bytes_le bs < 2 ^ wd).
    { split; [apply from_bytes_le_nonneg; assumption|]. pose proof (from_bytes_le_bound bs Ob) as Bd. unfold zlen in Bd. rewrite Lb in Bd.
      replace (8 * Z.of_nat (Z.to_nat (wd / 8))) with wd in Bd by (destruct Hw as [ -> | [ -> | -> ] ]; reflexivity). exact Bd. }
    unfold good. cbn [validb canon]. unfold valid_prim, canon_prim. rewrite (fwiden_idem wd c _ Hw Rx). repeat split; try discriminate.
    unfold fwiden. pose proof (fencode_range 64 (fdecode wd (from_bytes_le bs)) ltac:(auto) (fdecode_nonneg _ _)) as Rg. lia.
  - destruct (read_ok r 8 Hr ltac:(lia)) as (x & Ex & R & Hr1). rewrite Ex in E'. inversion E'; subst. split; [|assumption].
    apply good_int; [exact I|]. apply cast_in_range. exact R.
  - destruct (read_ok r 8 Hr ltac:(lia)) as (x & Ex & R & Hr1). rewrite Ex in E'. inversion E'; subst. split; [|assumption].
    apply good_int; [exact I|]. apply cast_in_range. exact R.
Qed.

Lemma dec_elems e : dec_ok e -> forall n r vs r', rok r -> deser_elems (deser e) n r = Ok (vs, r') ->
  length vs = n /\ Forall (good e) vs /\ rok r'.
Proof.
  intros He. induction n as [|n IH]; intros r vs r' Hr E; cbn [deser_elems] in E.
  - inversion E; subst. auto.
  - destruct (deser e r) as [[v ra]|] eqn:E1; [|discriminate].
    destruct (deser_elems (deser e) n ra) as [[vs' rb]|] eqn:E2; [|discriminate]. inversion E; subst.
    destruct (He _ _ _ Hr E1) as [G1 R1]. destruct (IH _ _ _ R1 E2) as (L & F & R2). simpl. auto.
Qed.

Lemma good_list e vs : Forall (good e) vs -> forallb (validb e) vs = true /\ map (canon e) vs = vs.
Proof.
  induction 1 as [|v r (A & B & _) Hr [IH1 IH2]]; [auto|]. cbn [forallb map]. rewrite A, B, IH1, IH2. auto.
Qed.

Lemma finish_array_good e vs v : finish_array e vs = Ok v ->
  v = VList vs /\ (if is_utf8 e then match byte_values vs with Some bs => utf8_valid bs | None => false end else true) = true.
Proof.
  unfold finish_array. destruct (is_utf8 e); [|intros E; inversion E; auto].
  destruct (byte_values vs); [|discriminate]. destruct (utf8_valid l) eqn:U; [|discriminate]. intros E; inversion E; auto.
Qed.

Lemma dec_array e : dec_ok e -> forall k r v r', rok r ->
  match deser_elems (deser e) k r with
  | Ok (vs, r1) => match finish_array e vs with Ok v => Ok (v, r1) | Err x => Err x end
  | Err x => Err x
  end = Ok (v, r') ->
  exists vs, v = VList vs /\ length vs = k /\ forallb (validb e) vs = true /\ map (canon e) vs = vs /\ rok r' /\
    (if is_utf8 e then match byte_values vs with Some bs => utf8_valid bs | None => false end else true) = true.
Proof.
  intros He k r v r' Hr E. destruct (deser_elems (deser e) k r) as [[vs ra]|] eqn:E1; [|discriminate].
  destruct (dec_elems e He _ _ _ _ Hr E1) as (L & F & R1). destruct (finish_array e vs) as [v0|] eqn:Ef; [|discriminate]. inversion E; subst.
  destruct (finish_array_good _ _ _ Ef) as [-> U]. destruct (good_list e vs F) as [G1 G2]. exists vs. auto 8.
Qed.

Lemma dec_fields fs : Forall (fun f => tok (snd f) /\ (fst f <> None -> dec_ok (snd f))) fs ->
  forall r vs r', rok r -> deser_fields deser fs r = Ok (vs, r') ->
  valid_fields validb fs vs = true /\ canon_fields canon fs vs = vs /\ rok r'.
Proof.
  induction 1 as [|[nm t] fr [[Hwt _] Ht] Hfr IH]; intros r vs r' Hr E; cbn [deser_fields valid_fields canon_fields fst snd] in *.
  - inversion E; subst. auto.
  - assert (Ra : rok (r_align_to r (align t))).
    { rewrite r_align_to_adv by apply align_pos. apply rok_adv; [assumption|]. apply pad_len_range. apply align_pos. }
    destruct nm as [nm|].
    + destruct (deser t (r_align_to r (align t))) as [[v ra]|] eqn:E1; [|discriminate].
      destruct (deser_fields deser fr ra) as [[vs' rb]|] eqn:E2; [|discriminate]. inversion E; subst.
      destruct (Ht ltac:(discriminate) _ _ _ Ra E1) as [(A & B & C) R1]. destruct (IH _ _ _ R1 E2) as (V & K & R2).
      assert (Ev : match v with VOmit => default_value t | _ => v end = v) by (destruct v; auto; congruence).
      rewrite Ev, A, B, V, K. auto.
    + destruct (read_ok _ (void_width t) Ra (void_width_nonneg t Hwt)) as (x & Ex & _ & R1). rewrite Ex in E. apply (IH _ _ _ R1 E).
Qed.

Lemma dec_variant fs : Forall (fun f => dec_ok (snd f)) fs ->
  forall k r v r', rok r -> deser_variant deser fs k r = Ok (v, r') ->
  valid_variant validb fs k v = true /\ canon_variant canon fs k v = v /\ rok r'.
Proof.
  induction 1 as [|f fr Hf Hfr IH]; intros k r v r' Hr E; cbn [deser_variant valid_variant canon_variant] in *; [discriminate|].
  destruct k as [|k]; [|apply (IH _ _ _ _ Hr E)]. destruct (Hf _ _ _ Hr E) as [(A & B & _) R]. auto.
Qed.

Lemma payload_plain t hdr : plain t = true -> plain (payload_type t hdr) = true.
Proof. destruct t; auto. destruct hdr; auto. cbn [plain payload_type]. intros H. apply andb_prop in H. apply H. Qed.

Lemma rok_align8 r : rok r -> rok (r_align_to r 8).
Proof. intros Hr. rewrite r_align_to_adv by lia. apply rok_adv; [assumption|]. apply pad_len_range. lia. Qed.

Theorem decoded_good : forall t, tok t -> plain t = true -> is_void t = false -> dec_ok t.
Proof.
  apply (tok_ind (fun t => plain t = true -> is_void t = false -> dec_ok t)); cbn [plain].
  - intros p Hp _ _. exact (dec_prim p Hp).
  - discriminate.
  - intros e n _ Hve _ Hn IHe Hpl _ r v r' Hr E. cbn [deser] in E.
    destruct (dec_array e (IHe Hpl Hve) _ _ _ _ Hr E) as (vs & -> & L & G1 & G2 & R1 & _).
    split; [|assumption]. unfold good. cbn [validb canon]. rewrite G1, G2.
    replace (zlen vs =? n) with true by (unfold zlen; lia). repeat split. discriminate.
  - intros e n _ Hve _ _ _ P2 IHe Hpl _ r v r' Hr E. cbn [deser] in E.
    destruct (read_ok r (prefix_width (align e) n) Hr ltac:(lia)) as (len & El & R & Hr0). rewrite El in E.
    destruct (n <? len) eqn:C; [discriminate|].
    destruct (dec_array e (IHe Hpl Hve) _ _ _ _ Hr0 E) as (vs & -> & L & G1 & G2 & R1 & U).
    split; [|assumption]. unfold good. cbn [validb canon]. rewrite G1, G2, U.
    replace (zlen vs <=? n) with true by (unfold zlen; lia). repeat split. discriminate.
  - intros nm fs _ Vf IH Hpl _ r v r' Hr E. cbn [deser] in E.
    assert (IH' : Forall (fun f => tok (snd f) /\ (fst f <> None -> dec_ok (snd f))) fs).
    { rewrite forallb_forall in Hpl. rewrite Forall_forall in *. intros f Hf. destruct (IH f Hf) as [T Pf]. split; [exact T|].
      intros Hnm. apply Pf; [apply Hpl; exact Hf|]. rewrite (Vf f Hf). destruct (fst f); congruence. }
    destruct (deser_fields deser fs r) as [[vs ra]|] eqn:E1; [|discriminate]. inversion E; subst.
    destruct (dec_fields fs IH' _ _ _ Hr E1) as (V & K & R1).
    split; [|rewrite max_align_fields; apply rok_align8; assumption].
    unfold good. cbn [validb canon]. rewrite V, K. repeat split. discriminate.
  - intros nm fs Vf _ _ _ T2 IH Hpl _ r v r' Hr E. cbn [deser] in E.
    assert (IH' : Forall (fun f => dec_ok (snd f)) fs).
    { rewrite forallb_forall in Hpl. rewrite Forall_forall in *. intros f Hf. apply (IH f Hf); auto. }
    destruct (read_ok r (union_tag_width fs) Hr ltac:(lia)) as (tag & Et & R & Hr0). rewrite Et in E.
    destruct (zlen fs <=? tag) eqn:C; [discriminate|].
    destruct (deser_variant deser fs (Z.to_nat tag) (r_adv r (union_tag_width fs))) as [[vv ra]|] eqn:E1; [|discriminate]. inversion E; subst.
    destruct (dec_variant fs IH' _ _ _ _ Hr0 E1) as (V & K & R1).
    split; [|rewrite max_align_fields; apply rok_align8; assumption].
    unfold good. cbn [validb canon]. rewrite V, K. replace ((0 <=? tag) && (tag <? zlen fs)) with true by lia. repeat split. discriminate.
  - intros i ext [Hwf _] [_ Hs] Hvi Hc _ IHi Hpl _ r v r' Hr E. cbn [deser] in E. rewrite (header_width_delim i Hc) in *.
    apply andb_prop in Hpl. destruct Hpl as [Hpi Hx]. destruct Hs as [Hsz|Hsz]; [|congruence].
    destruct (read_ok r 32 Hr ltac:(lia)) as (nb & En & R & Hr0). rewrite En in E.
    destruct (remaining_bits (r_adv r 32) <? nb * 8) eqn:C; [discriminate|]. cbn [bounded_subreader] in E.
    destruct (deser i _) as [[vi ra]|] eqn:E1 in E; [|discriminate]. inversion E; subst.
    destruct (IHi Hpi Hvi _ _ _ (Hr0 : rok (fst (bounded_subreader _ (nb * 8)))) E1) as [(A & B & Cn) _].
    split; [|apply rok_adv; [assumption|lia]].
    unfold good. cbn [canon]. rewrite (delim_valid_of_inner i ext v Hwf Hsz ltac:(lia) A). auto.
Qed.

Theorem valid_fixpoint t b hdr v :
  wft t = true -> serializable t = true -> is_composite t = true -> hdr_ok t hdr = true -> plain t = true -> bytes_ok b ->
  deserialize t b hdr = Ok v ->
  validb t v = true /\ canon t v = v /\ exists bs, serialize t v hdr = Ok bs /\ deserialize t bs hdr = Ok v.
Proof.
  intros Hwf Hsz Hc Hh Hpl Hb E. rewrite deserialize_payload in E by assumption.
  destruct (deser (payload_type t hdr) (r_new b)) as [[x r']|] eqn:E1; [|discriminate]. inversion E; subst x.
  assert (V : validb t v = true /\ canon t v = v).
  { destruct (decoded_good _ (payload_tok t hdr Hwf Hsz Hc) (payload_plain t hdr Hpl)
                (serializable_not_void _ (payload_serializable t hdr Hsz)) _ _ _ (conj Hb (Z.le_refl 0) : rok (r_new b)) E1) as [(A & B & _) _].
    rewrite payload_canon in B. split; [|exact B]. destruct t; auto. destruct hdr; auto.
    cbn [plain serializable payload_type] in *. apply andb_prop in Hpl. apply delim_valid_of_inner; auto. lia. }
  destruct V as [V1 V2]. split; [assumption|]. split; [assumption|].
  destruct (serialize_total t v hdr Hwf Hc Hh V1) as (bs & Es). exists bs. split; [assumption|].
  pose proof (roundtrip t v hdr bs Hwf Hsz Hc Hh V1 Es) as R. rewrite V2 in R. exact R.
Qed.
