(* The offset/limit reader returns the zero-extended, limit-clipped slice of the data bits: both read paths. *)
From Coq Require Import ZArith List Bool Lia.
From PV Require Import Serdes.Model Serdes.Bits Serdes.BitsProofs.
Import ListNotations.
Open Scope Z_scope.

(* the bit a reader sees at absolute position j: the data bit when j is inside the data and below the limit, else 0 *)
Definition within (r : reader) (j : Z) : bool := match rlimit r with Some l => j <? rstart r + l | None => true end.
Definition rbit (r : reader) (j : Z) : bool := within r j && getbit (rdata r) j.

Lemma rdata_adv r n : rdata (r_adv r n) = rdata r. Proof. reflexivity. Qed.
Lemma roff_adv r n : roff (r_adv r n) = roff r + n. Proof. reflexivity. Qed.
Lemma rbit_adv r n j : rbit (r_adv r n) j = rbit r j. Proof. reflexivity. Qed.

Lemma r_adv_adv r a b : r_adv (r_adv r a) b = r_adv r (a + b).
Proof. unfold r_adv. cbn. f_equal. lia. Qed.

Lemma r_adv_0 r : r_adv r 0 = r.
Proof. destruct r. unfold r_adv. cbn. f_equal. lia. Qed.

Lemma r_align_to_adv r a : 1 <= a -> r_align_to r a = r_adv r (pad_len a (roff r)).
Proof.
  intros Ha. unfold r_align_to. replace (a <=? 0) with false by lia. destruct (roff r mod a =? 0) eqn:E.
  - rewrite pad_len_0 by lia. symmetry. apply r_adv_0.
  - rewrite pad_len_nz by lia. reflexivity.
Qed.

Lemma byte_at_getbit data p : Z.land (Z.shiftr (byte_at data (p / 8)) (p mod 8)) 1 = Z.b2z (getbit data p).
Proof. rewrite land_1, Z.shiftr_spec, Z.add_0_l by discriminate. reflexivity. Qed.

(* the accumulator holds the bits read so far *)
Lemma read_loop_spec data off n : forall i acc, 0 <= i -> 0 <= off -> nbits acc i (fun k => getbit data (off + k)) ->
  nbits (read_loop n i data off acc) (i + Z.of_nat n) (fun k => getbit data (off + k)).
Proof.
  induction n as [|n IH]; intros i acc Hi Hoff Hacc; cbn [read_loop].
  - rewrite Z.add_0_r. exact Hacc.
  - rewrite byte_at_getbit. replace (i + Z.of_nat (S n)) with (i + 1 + Z.of_nat n) by lia.
    apply IH; [lia|assumption|]. apply nbits_lor; [lia|exact Hacc|]. apply nbits_b2z. rewrite Z.add_0_r. reflexivity.
Qed.

Lemma read_slow_spec r n : 0 <= n -> 0 <= roff r ->
  snd (read_slow r n) = r_adv r n /\ nbits (fst (read_slow r n)) n (fun k => getbit (rdata r) (roff r + k)).
Proof.
  intros Hn Hoff. split; [reflexivity|]. unfold read_slow. cbn [fst].
  rewrite <- (Z2Nat.id n) at 2 by assumption. apply (read_loop_spec _ _ _ 0 0); [lia|assumption|apply nbits_0].
Qed.

(* The byte-wise path is taken at a byte boundary: the n / 8 bytes from there on (zeros past the end of the data) give
   the low bits; the n mod 8 bits that are left come from the bit-wise loop and are placed above them. *)
Lemma read_raw_spec r n : bytes_ok (rdata r) -> 0 <= n -> 0 <= roff r ->
  snd (read_raw r n) = r_adv r n /\ nbits (fst (read_raw r n)) n (fun k => getbit (rdata r) (roff r + k)).
Proof.
  intros Hd Hn Hoff. unfold read_raw. destruct ((roff r mod 8 =? 0) && (8 <=? n)) eqn:C; [|apply read_slow_spec; assumption].
  apply andb_prop in C. destruct C as [C1 C2].
  set (full := n / 8). set (rem := n mod 8). set (s := roff r / 8). set (c0 := firstn (Z.to_nat full) (skipn (Z.to_nat s) (rdata r))).
  assert (En : n = full * 8 + rem /\ 0 <= full /\ 0 <= rem /\ roff r = 8 * s /\ 0 <= s)
    by (subst full rem s; Z.to_euclidean_division_equations; lia).
  destruct En as (En & Hfull & Hrem & Es & Hs).
  assert (N0 : nbits (from_bytes_le (c0 ++ zeros (full - zlen c0))) (full * 8) (fun k => getbit (rdata r) (roff r + k))).
  { assert (Oc : bytes_ok (c0 ++ zeros (full - zlen c0))).
    { apply bytes_ok_app; [apply bytes_ok_firstn, bytes_ok_skipn; assumption|apply bytes_ok_zeros]. }
    split; [apply from_bytes_le_nonneg; assumption|]. intros k Hk.
    rewrite testbit_from_bytes_le, getbit_app_zeros by assumption. subst c0. rewrite getbit_firstn, getbit_skipn by assumption.
    rewrite !Z2Nat.id, <- Es by assumption. f_equal. lia. }
  destruct (0 <? rem) eqn:R.
  - destruct (read_slow_spec (r_adv r (full * 8)) rem Hrem ltac:(rewrite roff_adv; lia)) as [S1 S2].
    destruct (read_slow (r_adv r (full * 8)) rem) as [hi r2]. cbn [fst snd] in *. subst r2. rewrite r_adv_adv, <- En.
    split; [reflexivity|]. rewrite En. apply nbits_lor; [assumption|exact N0|].
    eapply nbits_ext; [|exact S2]. intros k Hk. rewrite rdata_adv, roff_adv, Z.add_assoc. reflexivity.
  - replace n with (full * 8) by lia. split; [reflexivity|exact N0].
Qed.

(* read_bits returns the number whose bits are the n bits the reader sees from its offset on *)
Lemma read_bits_nbits r n : bytes_ok (rdata r) -> 0 <= n -> 0 <= roff r ->
  snd (read_bits r n) = r_adv r n /\ nbits (fst (read_bits r n)) n (fun k => rbit r (roff r + k)).
Proof.
  intros Hd Hn Hoff.
  unfold read_bits, rbit, within. destruct (rlimit r) as [lim|]; [|apply read_raw_spec; assumption].
  set (avail := Z.max 0 (lim - (roff r - rstart r))). destruct (avail =? 0) eqn:A0; [|destruct (avail <? n) eqn:A1].
  - (* the limit is exhausted: every bit reads as zero *)
    cbn [fst snd]. split; [reflexivity|]. split; [reflexivity|]. intros k Hk. rewrite Z.bits_0.
    replace (roff r + k <? rstart r + lim) with false by lia. symmetry. apply andb_false_r.
  - (* the limit ends inside the field: the bits up to it are read, the rest are zero *)
    destruct (read_raw_spec r avail Hd ltac:(lia) Hoff) as [S1 [N0 N]].
    destruct (read_raw r avail) as [v r1]. cbn [fst snd] in *. subst r1. rewrite r_adv_adv.
    split; [f_equal; lia|]. split; [assumption|]. intros k Hk. rewrite N by assumption.
    replace (roff r + k <? rstart r + lim) with (k <? avail) by lia. destruct (k <? avail) eqn:D; [|symmetry; apply andb_false_r].
    replace (k <? n) with true by lia. reflexivity.
  - destruct (read_raw_spec r n Hd Hn Hoff) as [S1 N]. split; [exact S1|]. eapply nbits_ext; [|exact N].
    intros k Hk. cbv beta. replace (roff r + k <? rstart r + lim) with true by lia. reflexivity.
Qed.

Theorem read_bits_spec r n : bytes_ok (rdata r) -> 0 <= n -> 0 <= roff r ->
  snd (read_bits r n) = r_adv r n /\ 0 <= fst (read_bits r n) < 2 ^ n /\ forall k, 0 <= k < n -> Z.testbit (fst (read_bits r n)) k = rbit r (roff r + k).
Proof.
  intros Hd Hn Hoff. destruct (read_bits_nbits r n Hd Hn Hoff) as [S N].
  split; [exact S|]. split; [exact (nbits_range _ _ _ Hn N)|]. intros k Hk. exact (nbits_bit _ _ _ _ N Hk).
Qed.
