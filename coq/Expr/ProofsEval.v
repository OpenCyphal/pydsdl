(* C04 - the Specification's operator tables (Expr/Sem.v): the dispatch mechanism (Expr/Eval.v) computes them, and they
   reject exactly the operand combinations the Specification leaves undefined (Expr/Spec.v) *)
From Coq Require Import ZArith QArith List Bool Lia.
From PV Require Import Expr.Values Expr.Syntax Expr.Sem Expr.Eval Expr.Spec Expr.ProofsArith.
Import ListNotations.

(* induction principles for the nested inductives value and expr (ProofsSet, ProofsGrammar and ProofsParser use
   them as well) *)
Section ValueInd.
Variable P : value -> Prop.
Hypothesis Hr : forall q, P (VRat q).
Hypothesis Hb : forall b, P (VBool b).
Hypothesis Hs : forall s, P (VStr s).
Hypothesis Hset : forall l, Forall P l -> P (VSet l).
Fixpoint value_ind' (v : value) : P v :=
  match v with
  | VRat q => Hr q
  | VBool b => Hb b
  | VStr s => Hs s
  | VSet l => Hset l ((fix go (l : list value) : Forall P l :=
                         match l with [] => Forall_nil P | x :: r => Forall_cons x (value_ind' x) (go r) end) l)
  end.
End ValueInd.

Section ExprInd.
Variable P : expr -> Prop.
Hypothesis Hlit : forall l, P (ELit l).
Hypothesis Hid : forall n, P (EIdent n).
Hypothesis Hset : forall es, Forall P es -> P (ESet es).
Hypothesis Hun : forall o a, P a -> P (EUn o a).
Hypothesis Hbin : forall o a b, P a -> P b -> P (EBin o a b).
Hypothesis Hattr : forall a n, P a -> P (EAttr a n).
Hypothesis Hpar : forall a, P a -> P (EPar a).
Fixpoint expr_ind' (e : expr) : P e :=
  match e with
  | ELit l => Hlit l
  | EIdent n => Hid n
  | ESet es => Hset es ((fix go (l : list expr) : Forall P l :=
                           match l with [] => Forall_nil P | x :: r => Forall_cons x (expr_ind' x) (go r) end) es)
  | EUn o a => Hun o a (expr_ind' a)
  | EBin o a b => Hbin o a b (expr_ind' a) (expr_ind' b)
  | EAttr a n => Hattr a n (expr_ind' a)
  | EPar a => Hpar a (expr_ind' a)
  end.
End ExprInd.

Definition is_set (v : value) : bool := match v with VSet _ => true | _ => false end.

(* the methods of a scalar class answer operands of that class only *)
Lemma meth_scalar_other_class : forall o a b, kind_of a <> kind_of b -> meth_scalar o a b = DUndef.
Proof.
  intros o a b K. destruct a, b; try (exfalso; apply K; reflexivity); try reflexivity; destruct o; reflexivity.
Qed.

Lemma meth_set_on_scalar : forall o la r, is_set r = false -> meth_set o la r = DUndef.
Proof. intros o la r H. destruct r; try discriminate; reflexivity. Qed.

(* operands of one class: _auto_swap re-raises, so the direct method is all there is *)
Lemma swap_same_kind : forall o a b, kind_of a = kind_of b -> swap_scalar o a b = to_res (meth_scalar o a b).
Proof.
  intros o a b K. unfold swap_scalar. rewrite K. destruct (meth_scalar o a b); try reflexivity.
  destruct (kind_of b); reflexivity.
Qed.

(* operands of different classes: the alternative method is again a method of a scalar class on an operand of
   another class, so swapping rescues nothing *)
Lemma swap_other_class : forall o a b, kind_of a <> kind_of b -> swap_scalar o a b = Rej.
Proof.
  intros o a b K. unfold swap_scalar. rewrite (meth_scalar_other_class o a b K).
  destruct (kind_eqb (kind_of a) (kind_of b)); [reflexivity|]. destruct (alt_of o) as [o'|]; [|reflexivity].
  rewrite meth_scalar_other_class by congruence. reflexivity.
Qed.

Lemma swap_scalar_sem : forall o a b, o <> BNe -> is_set a = false -> is_set b = false ->
  swap_scalar o a b = sem_scalar o a b.
Proof.
  intros o a b Hne Ha Hb.
  destruct a as [p|x|s|la]; try discriminate; destruct b as [q|y|t|lb]; try discriminate;
    try (rewrite swap_other_class by discriminate; reflexivity).
  2-3: destruct o; try congruence; reflexivity.
  rewrite swap_same_kind by reflexivity.
  destruct o; try congruence; try reflexivity; cbn [meth_scalar meth_rat rat_bitwise rat_arith sem_scalar bitop].
  1-3: destruct (is_int p), (is_int q); reflexivity.
  - destruct (q_is_zero q); reflexivity.
  - destruct (q_is_zero q) eqn:Z; [reflexivity|]. cbn [to_res]. rewrite (py_mod_qnorm p q Z). reflexivity.
  - destruct (is_int q) eqn:Iq.
    + rewrite <- (py_pow_sem p q Iq). destruct (py_pow_int p (qnum q)); reflexivity.
    + unfold sem_pow. rewrite Iq. reflexivity.
Qed.

Lemma ew_l_lift : forall o r, o <> BNe -> is_set r = false -> forall x, ew_l o r x = lift_l o r x.
Proof.
  intros o r Hne Hr. induction x using value_ind'; try (apply swap_scalar_sem; auto).
  cbn [ew_l lift_l]. f_equal. apply map_ext_Forall. exact H.
Qed.

Lemma ew_r_lift : forall o l, o <> BNe -> is_set l = false -> forall x, ew_r o l x = lift_r o l x.
Proof.
  intros o l Hne Hl. induction x using value_ind'; try (apply swap_scalar_sem; auto).
  cbn [ew_r lift_r]. f_equal. apply map_ext_Forall. exact H.
Qed.

Lemma to_res_of_res : forall r, to_res (of_res r) = r.
Proof. destruct r; reflexivity. Qed.

Lemma setset_sem : forall o la lb, o <> BNe ->
  match meth_set o la (VSet lb) with DUndef => Rej | d => to_res d end = sem_setset o la lb.
Proof.
  intros o la lb Hne. unfold sem_setset, homotypic.
  destruct o; try congruence; try reflexivity; cbn [meth_set]; unfold homotypic;
    destruct (opt_kind_eqb (elem_kind la) (elem_kind lb)); cbn [negb]; try reflexivity.
  - destruct (mkset (vunion la lb)); reflexivity.
  - destruct (mkset (vsymdiff la lb)); reflexivity.
  - destruct (mkset (vinter la lb)); reflexivity.
Qed.

Lemma arith_not_ne : forall o, is_arith o = true -> o <> BNe.
Proof. intros o H E. subst. discriminate. Qed.

Lemma alt_right_scalar : forall o, is_arith o = true -> alt_of o = AltRight.
Proof. destruct o; try discriminate; reflexivity. Qed.

(* a set and a scalar: neither the direct method nor a same-named alternative is defined on the other class, so
   only the element-wise methods of Set answer, and they exist for the arithmetic operators only *)
Lemma disp1_set_scalar : forall o la r, is_set r = false ->
  disp1 o (VSet la) r = if is_arith o then ew_l o r (VSet la) else Rej.
Proof. intros o la r H. destruct r; try discriminate H; destruct o; reflexivity. Qed.

Lemma disp1_scalar_set : forall o l lb, is_set l = false ->
  disp1 o l (VSet lb) = if is_arith o then ew_r o l (VSet lb) else Rej.
Proof. intros o l lb H. destruct l; try discriminate H; destruct o; reflexivity. Qed.

Lemma disp1_sem : forall o l r, o <> BNe -> disp1 o l r = sem_bin o l r.
Proof.
  intros o l r Hne. destruct (is_set l) eqn:Sl, (is_set r) eqn:Sr.
  - destruct l as [| | |la], r as [| | |lb]; try discriminate. apply setset_sem. exact Hne.
  - destruct l as [| | |la]; try discriminate. rewrite (disp1_set_scalar o la r Sr).
    destruct r; try discriminate; cbn [sem_bin]; destruct (is_arith o); try reflexivity; apply ew_l_lift; auto.
  - destruct r as [| | |lb]; try discriminate. rewrite (disp1_scalar_set o l lb Sl).
    destruct l; try discriminate; cbn [sem_bin]; destruct (is_arith o); try reflexivity; apply ew_r_lift; auto.
  - destruct l, r; try discriminate; unfold disp1, sem_bin; apply swap_scalar_sem; auto.
Qed.

Lemma sem_bin_ne : forall l r,
  match sem_bin BEq l r with Ok (VBool b) => Ok (VBool (negb b)) | Ok _ => Rej | x => x end = sem_bin BNe l r.
Proof.
  intros l r. destruct l as [p|x|s|la]; destruct r as [q|y|t|lb]; try reflexivity.
  unfold sem_bin, sem_setset. destruct (opt_kind_eqb (elem_kind la) (elem_kind lb)); reflexivity.
Qed.

(* C04_eval_exact, operator level *)
Theorem disp_sem : forall o l r, disp o l r = sem_bin o l r.
Proof.
  intros o l r. destruct o; try (apply disp1_sem; discriminate).
  unfold disp. rewrite disp1_sem by discriminate. apply sem_bin_ne.
Qed.

Lemma attr_ext : forall bin1 bin2, (forall o a b, bin1 o a b = bin2 o a b) ->
  forall n v, attr bin1 n v = attr bin2 n v.
Proof.
  intros bin1 bin2 H n v. unfold attr. destruct v; try reflexivity.
  assert (forall f g l, (forall a b, f a b = g a b) -> reduce_with f l = reduce_with g l) as R.
  { intros f g l E. unfold reduce_with. destruct l as [|x r]; [reflexivity|].
    generalize (Ok x). induction r as [|y r IH]; intros acc; cbn; [reflexivity|].
    rewrite IH. f_equal. destruct acc; try reflexivity. rewrite E. reflexivity. }
  rewrite (R (bin1 BLt) (bin2 BLt)) by (intros; apply H).
  rewrite (R (bin1 BGt) (bin2 BGt)) by (intros; apply H). reflexivity.
Qed.

Lemma eval_with_ext : forall bin1 bin2, (forall o a b, bin1 o a b = bin2 o a b) ->
  forall g e, eval_with bin1 g e = eval_with bin2 g e.
Proof.
  intros bin1 bin2 H g. induction e using expr_ind'; cbn [eval_with]; try reflexivity.
  - f_equal. apply map_ext_Forall. exact H0.
  - rewrite IHe. reflexivity.
  - rewrite IHe1, IHe2. destruct (eval_with bin2 g e1); destruct (eval_with bin2 g e2); try reflexivity. apply H.
  - rewrite IHe. destruct (eval_with bin2 g e); try reflexivity. apply attr_ext. exact H.
  - exact IHe.
Qed.

(* C04_eval_exact *)
Theorem eval_exact : forall g e, eval g e = sem g e.
Proof. intros g e. unfold eval, sem. apply eval_with_ext. exact disp_sem. Qed.

(* What the tables reject. *)
Lemma q_zero_iff : forall q, q_is_zero q = true <-> q == 0.
Proof. intros q. unfold q_is_zero. apply Qeq_bool_iff. Qed.

Lemma sem_pow_rej : forall p q, sem_pow p q = Rej <-> (p == 0 /\ is_int q = true /\ (qnum q < 0)%Z).
Proof.
  intros p q. unfold sem_pow. destruct (is_int q) eqn:I.
  - destruct (q_is_zero p) eqn:Z; cbn [andb].
    + destruct (qnum q <? 0)%Z eqn:N.
      * split; [intros _|reflexivity]. split; [apply q_zero_iff; assumption|]. split; [reflexivity|apply Z.ltb_lt; assumption].
      * split; [discriminate|]. intros [_ [_ H]]. apply Z.ltb_ge in N. lia.
    + split; [discriminate|]. intros [H _]. apply q_zero_iff in H. congruence.
  - split; [discriminate|]. intros [_ [H _]]. discriminate.
Qed.

Lemma defined_not_rej : forall o a b, Defined o a b -> sem_scalar o a b <> Rej.
Proof.
  intros o a b H. destruct H; cbn [sem_scalar]; try discriminate.
  1-5: destruct o; discriminate.
  - destruct o; try discriminate; rewrite H0, H1; discriminate.
  - destruct (q_is_zero q) eqn:Z; [apply q_zero_iff in Z; contradiction|discriminate].
  - destruct (q_is_zero q) eqn:Z; [apply q_zero_iff in Z; contradiction|discriminate].
  - intros E. apply sem_pow_rej in E. contradiction.
Qed.

Lemma not_rej_defined : forall o a b, sem_scalar o a b <> Rej -> Defined o a b.
Proof.
  intros o a b H.
  destruct a as [p|x|s|la], b as [q|y|t|lb]; try contradiction (H eq_refl);
    destruct o; try contradiction (H eq_refl); cbn [sem_scalar] in H; try (constructor; reflexivity).
  (* the entries with a side condition are left *)
  1-3: destruct (is_int p) eqn:I1, (is_int q) eqn:I2; try contradiction (H eq_refl); apply Def_bit; auto.
  - apply Def_div. intros E. apply q_zero_iff in E. rewrite E in H. contradiction (H eq_refl).
  - apply Def_mod. intros E. apply q_zero_iff in E. rewrite E in H. contradiction (H eq_refl).
  - apply Def_pow. intros E. apply H, sem_pow_rej, E.
Qed.

(* C04_rejects; a set operand is outside the table *)
Theorem scalar_rejects : forall o a b, sem_scalar o a b = Rej <-> ~ Defined o a b.
Proof.
  intros o a b. split.
  - intros E D. apply (defined_not_rej _ _ _ D E).
  - intros N. destruct (sem_scalar o a b) eqn:E; try reflexivity; exfalso; apply N, not_rej_defined; rewrite E; discriminate.
Qed.

Lemma mkset_rej : forall l, mkset l = Rej <-> l = [] \/ homogeneous l = false.
Proof.
  intros l. unfold mkset. destruct l as [|x r]; [tauto|].
  destruct (homogeneous (x :: r)); split; try discriminate; try tauto.
  intros [H|H]; discriminate.
Qed.

Lemma forallb_filter : forall (A : Type) (p f : A -> bool) l, forallb p l = true -> forallb p (filter f l) = true.
Proof.
  intros A p f l. induction l as [|x r IH]; cbn; [reflexivity|]. intros H. apply andb_true_iff in H. destruct H as [H1 H2].
  destruct (f x); cbn; [rewrite H1, IH by assumption; reflexivity|apply IH; assumption].
Qed.

Lemma kind_eqb_refl : forall k, kind_eqb k k = true.
Proof. destruct k; reflexivity. Qed.

Lemma kind_eqb_eq : forall a b, kind_eqb a b = true -> a = b.
Proof. destruct a, b; try discriminate; reflexivity. Qed.

Definition all_kind (k : kind) (l : list value) : bool := forallb (fun y => kind_eqb k (kind_of y)) l.

Lemma homogeneous_all_kind : forall x r, homogeneous (x :: r) = true -> all_kind (kind_of x) (x :: r) = true.
Proof. intros x r H. cbn. rewrite kind_eqb_refl. exact H. Qed.

Lemma all_kind_homogeneous : forall k l, all_kind k l = true -> homogeneous l = true.
Proof.
  intros k l H. destruct l as [|x r]; [reflexivity|]. cbn in *. apply andb_true_iff in H. destruct H as [H1 H2].
  apply kind_eqb_eq in H1. subst. exact H2.
Qed.

Lemma all_kind_filter : forall k f l, all_kind k l = true -> all_kind k (filter f l) = true.
Proof. intros. apply forallb_filter. assumption. Qed.

Lemma all_kind_app : forall k a b, all_kind k a = true -> all_kind k b = true -> all_kind k (a ++ b) = true.
Proof. intros k a b Ha Hb. unfold all_kind in *. rewrite forallb_app, Ha, Hb. reflexivity. Qed.

Lemma all_kind_dedup : forall k l, all_kind k l = true -> all_kind k (vdedup l) = true.
Proof.
  intros k l. induction l as [|x r IH]; cbn; [reflexivity|]. intros H. apply andb_true_iff in H. destruct H as [H1 H2].
  destruct (vmem x r); [apply IH; assumption|]. cbn. rewrite H1. cbn. apply IH. assumption.
Qed.

Lemma vdedup_nonempty : forall l, l <> [] -> vdedup l <> [].
Proof.
  induction l as [|x r IH]; [congruence|]. intros _. cbn. destruct (vmem x r) eqn:M; [|discriminate].
  apply IH. intros E. subst. discriminate.
Qed.

Lemma mkset_rej_all_kind : forall k l, all_kind k l = true -> (mkset l = Rej <-> l = []).
Proof.
  intros k l H. rewrite mkset_rej, (all_kind_homogeneous k l H). split; [intros [E|E]; [exact E|discriminate E]|auto].
Qed.

Lemma setset_not_setop : forall o la lb, is_setop o = false -> sem_setset o la lb = Rej.
Proof. intros o la lb H. destruct o; try discriminate H; reflexivity. Qed.

Lemma setset_kinds_differ : forall o la lb,
  opt_kind_eqb (elem_kind la) (elem_kind lb) = false -> sem_setset o la lb = Rej.
Proof. intros o la lb K. unfold sem_setset. rewrite K. destruct o; reflexivity. Qed.

(* C04_rejects_sets *)
Theorem setset_rejects : forall o la lb, wf_set la -> wf_set lb ->
  (sem_setset o la lb = Rej <->
   is_setop o = false \/ opt_kind_eqb (elem_kind la) (elem_kind lb) = false
   \/ (o = BBand /\ vinter la lb = []) \/ (o = BXor /\ vsymdiff la lb = [])).
Proof.
  intros o la lb [Na Ha] [Nb Hb].
  destruct (is_setop o) eqn:S; [|rewrite (setset_not_setop o la lb S); split; [left|]; reflexivity].
  destruct (opt_kind_eqb (elem_kind la) (elem_kind lb)) eqn:K;
    [|rewrite (setset_kinds_differ o la lb K); split; [right; left|]; reflexivity].
  unfold sem_setset. rewrite K. cbn [negb].
  destruct la as [|xa ra]; [congruence|]. destruct lb as [|xb rb]; [congruence|].
  cbn in K. apply kind_eqb_eq in K.
  pose proof (homogeneous_all_kind _ _ Ha) as Aa. pose proof (homogeneous_all_kind _ _ Hb) as Ab. rewrite <- K in Ab.
  (* a comparison yields a boolean; the three algebraic operators are left *)
  destruct o; try discriminate S; try (split; [discriminate|intros [H|[H|[[H _]|[H _]]]]; discriminate]).
  - (* union: never rejected *)
    rewrite (mkset_rej_all_kind (kind_of xa)) by (apply all_kind_dedup, all_kind_app; assumption).
    split; [|intros [H|[H|[[H _]|[H _]]]]; discriminate].
    intros E. exfalso. apply (vdedup_nonempty ((xa :: ra) ++ xb :: rb)); [discriminate|exact E].
  - (* symmetric difference *)
    rewrite (mkset_rej_all_kind (kind_of xa)) by (apply all_kind_app; apply all_kind_filter; assumption).
    split; [auto|intros [H|[H|[[H _]|[_ H]]]]; try discriminate; exact H].
  - (* intersection *)
    rewrite (mkset_rej_all_kind (kind_of xa)) by (apply all_kind_filter; assumption).
    split; [auto|intros [H|[H|[[_ H]|[H _]]]]; try discriminate; exact H].
Qed.

Lemma collect_rej : forall rs, collect rs = LRej <-> In Rej rs.
Proof.
  induction rs as [|r rest IH]; cbn [collect In]; [split; [discriminate|contradiction]|].
  rewrite <- IH. destruct r, (collect rest); intuition congruence.
Qed.

Theorem set_of_rej_elem : forall rs, In Rej rs -> set_of rs = Rej.
Proof. intros rs H. unfold set_of. apply collect_rej in H. rewrite H. reflexivity. Qed.

(* C04_rejects_set_scalar *)
Theorem set_scalar_rejects : forall o l b, is_set b = false ->
  (sem_bin o (VSet l) b = (if is_arith o then set_of (map (fun x => lift_l o b x) l) else Rej)
   /\ sem_bin o b (VSet l) = (if is_arith o then set_of (map (fun x => lift_r o b x) l) else Rej))
  /\ (forall rs, In Rej rs -> set_of rs = Rej).
Proof. intros o l b Hb. split; [destruct b; try discriminate; split; reflexivity|exact set_of_rej_elem]. Qed.

(* C04_rejects_misc *)
Theorem nonbinary_rejects :
  (forall o v, sem_un o v <> Rej <-> (o = UNot /\ exists b, v = VBool b) \/ (o <> UNot /\ exists q, v = VRat q))
  /\ (forall bin n v, is_set v = false -> attr bin n v = Rej)
  /\ (forall bin n l, text_eqb n name_min = false -> text_eqb n name_max = false -> text_eqb n name_count = false ->
        attr bin n (VSet l) = Rej)
  /\ (forall bin g, eval_with bin g (ESet []) = Rej)
  /\ (forall bin n, eval_with bin [] (EIdent n) = Rej)
  /\ (forall l, homogeneous l = false -> mkset l = Rej).
Proof.
  repeat split.
  - intros H. destruct o; destruct v; cbn in H; try (exfalso; apply H; reflexivity).
    + left. split; [reflexivity|eauto].
    + right. split; [discriminate|eauto].
    + right. split; [discriminate|eauto].
  - intros [[-> [b ->]]|[Ho [q ->]]]; [discriminate|]. destruct o; try congruence; discriminate.
  - intros bin n v H. destruct v; try discriminate; reflexivity.
  - intros bin n l H1 H2 H3. cbn. rewrite H1, H2, H3. reflexivity.
  - intros l H. apply mkset_rej. right. assumption.
Qed.
