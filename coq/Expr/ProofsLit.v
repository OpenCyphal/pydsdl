(* C04 - literal decoding is positional / decimal-fraction / escape meaning, and never fails on integer texts the
   grammar accepts (a string it accepts can still carry an unknown escape) *)
From Coq Require Import ZArith QArith List Bool Lia.
From PV Require Import Expr.Literals.
Import ListNotations.
Open Scope Z_scope.

(* the digit values of a text, separators dropped; None if a character is not a digit of the base *)
Fixpoint digit_list (base : Z) (l : list Z) : option (list Z) :=
  match l with
  | [] => Some []
  | c :: r =>
      if is_us c then digit_list base r
      else match digit_val c with
           | Some d => if d <? base then option_map (cons d) (digit_list base r) else None
           | None => None
           end
  end.

Definition positional (base : Z) (acc : Z) (ds : list Z) : Z := fold_left (fun a d => a * base + d) ds acc.

(* int(text.replace("_", ""), base) is the positional value of the digits *)
Theorem digits_positional : forall base l acc,
  digits_val base acc l = option_map (positional base acc) (digit_list base l).
Proof.
  intros base. induction l as [|c r IH]; intros acc; cbn; [reflexivity|].
  destruct (is_us c); [apply IH|].
  destruct (digit_val c) as [d|]; [|reflexivity].
  destruct (d <? base); [|reflexivity].
  rewrite IH. destruct (digit_list base r); reflexivity.
Qed.

Lemma digit_val_range : forall c d, digit_val c = Some d -> 0 <= d < 16.
Proof.
  intros c d H. unfold digit_val in H.
  destruct ((48 <=? c) && (c <=? 57)) eqn:A; [inversion H; apply andb_true_iff in A; lia|].
  destruct ((97 <=? c) && (c <=? 102)) eqn:B; [inversion H; apply andb_true_iff in B; lia|].
  destruct ((65 <=? c) && (c <=? 70)) eqn:C; [inversion H; apply andb_true_iff in C; lia|discriminate].
Qed.

Lemma positional_nonneg : forall base ds acc, 0 <= base -> 0 <= acc -> Forall (fun d => 0 <= d) ds -> 0 <= positional base acc ds.
Proof.
  intros base ds. induction ds as [|d r IH]; intros acc Hb Ha Hd; cbn; [assumption|].
  inversion Hd; subst. apply IH; try assumption. nia.
Qed.

Definition all_ok (base : Z) (l : list Z) : bool := forallb (fun c => is_us c || is_digit_of base c) l.

Lemma all_ok_decodes : forall base l acc, all_ok base l = true -> exists z, digits_val base acc l = Some z.
Proof.
  intros base. induction l as [|c r IH]; intros acc H; cbn; [eauto|].
  cbn in H. apply andb_true_iff in H. destruct H as [H1 H2].
  destruct (is_us c); [apply IH; assumption|]. cbn in H1. unfold is_digit_of in H1.
  destruct (digit_val c) as [d|]; [|discriminate]. rewrite H1. apply IH. assumption.
Qed.

Lemma digit_not_us : forall base c, is_digit_of base c = true -> is_us c = false.
Proof.
  intros base c H. unfold is_us. destruct (Z.eqb_spec c 95) as [->|]; [discriminate H|reflexivity].
Qed.

(* a digit after a separator starts a group of its own, so induction on the text goes through *)
Lemma sep_digits_all_ok : forall base (p : Z -> bool), (forall c, p c = true -> is_digit_of base c = true) ->
  forall l, sep_digits p l = true -> all_ok base l = true.
Proof.
  intros base p Hp. induction l as [|c r IH]; intros H; [reflexivity|].
  cbn [sep_digits] in H. cbn [all_ok forallb]. destruct (is_us c) eqn:U.
  - destruct r as [|d r']; [discriminate H|]. apply andb_true_iff in H. destruct H as [H1 H2].
    apply IH. cbn [sep_digits]. rewrite (digit_not_us base d (Hp d H1)), H1. exact H2.
  - apply andb_true_iff in H. destruct H as [H1 H2]. rewrite (Hp c H1). apply IH. exact H2.
Qed.

Lemma is_dec_digit10 : forall c, is_dec c = true -> is_digit_of 10 c = true.
Proof.
  intros c H. unfold is_dec in H. unfold is_digit_of, digit_val. rewrite H. apply andb_true_iff in H. apply Z.ltb_lt. lia.
Qed.

Lemma zero_digit10 : forall c, (c =? 48) = true -> is_digit_of 10 c = true.
Proof. intros c H. apply Z.eqb_eq in H. subst. reflexivity. Qed.

Lemma int_base_10 : forall text ds, int_base text = (10, ds) -> ds = text.
Proof.
  intros text ds H. unfold int_base in H. destruct text as [|c0 [|c1 r]]; try (inversion H; reflexivity).
  destruct (c0 =? 48); [|inversion H; reflexivity].
  destruct ((c1 =? 98) || (c1 =? 66)); [inversion H|]. destruct ((c1 =? 111) || (c1 =? 79)); [inversion H|].
  destruct ((c1 =? 120) || (c1 =? 88)); [inversion H|]. inversion H; reflexivity.
Qed.

Theorem int_wf_decodes : forall text, int_wf text = true -> exists z, int_value text = Some z.
Proof.
  intros text H. unfold int_wf, int_value in *. destruct (int_base text) as [b ds] eqn:B.
  destruct (b =? 10) eqn:E.
  - apply Z.eqb_eq in E. subst b. apply int_base_10 in B. subst ds.
    apply all_ok_decodes. destruct text as [|c r]; [discriminate|].
    destruct (c =? 48) eqn:C.
    + cbn [all_ok forallb]. rewrite (zero_digit10 c C), orb_true_r. cbn [andb].
      apply (sep_digits_all_ok 10 (fun c => c =? 48) zero_digit10 r). exact H.
    + apply andb_true_iff in H. destruct H as [H1 H2]. cbn [all_ok forallb].
      assert (is_digit_of 10 c = true) as D by (apply is_dec_digit10; unfold is_dec; apply andb_true_iff in H1; apply andb_true_iff; lia).
      rewrite D, orb_true_r. cbn [andb].
      apply (sep_digits_all_ok 10 is_dec is_dec_digit10 r). assumption.
  - apply all_ok_decodes. unfold sep_digits1 in H. destruct ds as [|c r]; [discriminate|].
    apply (sep_digits_all_ok b (is_digit_of b) (fun c H => H) (c :: r)). assumption.
Qed.

Theorem int_prefixes : forall ds,
  int_value (48 :: 120 :: ds) = digits_val 16 0 ds /\ int_value (48 :: 88 :: ds) = digits_val 16 0 ds
  /\ int_value (48 :: 111 :: ds) = digits_val 8 0 ds /\ int_value (48 :: 79 :: ds) = digits_val 8 0 ds
  /\ int_value (48 :: 98 :: ds) = digits_val 2 0 ds /\ int_value (48 :: 66 :: ds) = digits_val 2 0 ds.
Proof. intros. repeat split. Qed.

Lemma str_run_plain : forall s out, forallb (fun c => negb (c =? 92)) s = true -> str_run SNorm s out = Some (rev out ++ s).
Proof.
  induction s as [|c r IH]; intros out H; cbn.
  - rewrite app_nil_r. reflexivity.
  - cbn in H. apply andb_true_iff in H. destruct H as [H1 H2]. destruct (c =? 92); [discriminate|].
    rewrite IH by assumption. cbn. rewrite <- app_assoc. reflexivity.
Qed.

Theorem str_plain : forall q s, is_quote q = true -> forallb (fun c => negb (c =? 92)) s = true ->
  str_value (q :: s ++ [q]) = Some s.
Proof.
  intros q s Hq Hs. unfold str_value. rewrite rev_app_distr. cbn [rev app]. rewrite Hq, Z.eqb_refl. cbn [andb].
  rewrite rev_involutive. rewrite (str_run_plain s [] Hs). reflexivity.
Qed.

(* C04_literals *)
Theorem literals_decode :
  (forall base l acc, digits_val base acc l = option_map (positional base acc) (digit_list base l))
  /\ (forall text, int_wf text = true -> exists z, int_value text = Some z)
  /\ (forall ds, int_value (48 :: 120 :: ds)%Z = digits_val 16 0 ds /\ int_value (48 :: 111 :: ds)%Z = digits_val 8 0 ds
                 /\ int_value (48 :: 98 :: ds)%Z = digits_val 2 0 ds)
  /\ (forall q s, is_quote q = true -> forallb (fun c => negb (c =? 92)%Z) s = true -> str_value (q :: s ++ [q]) = Some s).
Proof.
  split; [exact digits_positional|]. split; [exact int_wf_decodes|]. split; [intros ds; repeat split|exact str_plain].
Qed.

Theorem str_escapes :
  str_value [39; 92; 110; 92; 114; 92; 116; 92; 92; 92; 39; 92; 34; 39] = Some [10; 13; 9; 92; 39; 34]
  /\ str_value [34; 92; 78; 92; 82; 92; 84; 34] = Some [10; 13; 9]
  /\ str_value [39; 92; 117; 48; 48; 101; 57; 39] = Some [233]
  /\ str_value [39; 92; 85; 48; 48; 49; 48; 70; 70; 70; 70; 39] = Some [1114111]
  /\ str_value [39; 92; 85; 48; 48; 49; 49; 48; 48; 48; 48; 39] = None
  /\ str_value [39; 92; 120; 52; 49; 39] = None
  /\ str_value [39; 92; 117; 49; 50; 39] = None.
Proof. repeat split; vm_compute; reflexivity. Qed.

Theorem real_examples :
  real_value [49; 46; 53] = Some (3 # 2)%Q
  /\ real_value [46; 53] = Some (1 # 2)%Q
  /\ real_value [53; 46] = Some (5 # 1)%Q
  /\ real_value [49; 101; 51] = Some (1000 # 1)%Q
  /\ real_value [49; 46; 53; 69; 45; 51] = Some (3 # 2000)%Q
  /\ real_value [49; 95; 48; 46; 50; 95; 53; 101; 43; 49] = Some (205 # 2)%Q.
Proof. repeat split; vm_compute; reflexivity. Qed.

(* C04_literal_reals *)
Lemma real_value_formula : forall text iv fv,
  opt_val (rp_int (real_split text)) = Some iv -> opt_val (rp_frac (real_split text)) = Some fv ->
  rp_exp (real_split text) = None ->
  exists q, real_value text = Some q
            /\ (q == inject_Z iv + inject_Z fv / inject_Z (10 ^ ndigits (rp_frac (real_split text))))%Q.
Proof.
  intros text iv fv Hi Hf He. set (k := ndigits (rp_frac (real_split text))). unfold real_value. rewrite Hi, Hf, He. fold k.
  eexists. split; [reflexivity|]. rewrite Qred_correct.
  assert (0 < 10 ^ k) as Hk.
  { apply Z.pow_pos_nonneg; [lia|]. unfold k. generalize (rp_frac (real_split text)). induction l as [|c r IH]; cbn [ndigits]; [lia|].
    destruct (is_us c); lia. }
  rewrite (Qmake_Qdiv (iv * 10 ^ k + fv) (Z.to_pos (10 ^ k))). rewrite Z2Pos.id by assumption.
  rewrite inject_Z_plus, inject_Z_mult.
  assert (~ inject_Z (10 ^ k) == 0)%Q as N by (intro E; unfold Qeq, inject_Z in E; cbn in E; lia).
  field. assumption.
Qed.
