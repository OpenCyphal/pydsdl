(* C04 - set values: equality of values is an equivalence; | & ^ are union, intersection, symmetric difference;
   <= is subset and == is equality of sets; min and max of rational sets are the least / greatest element *)
From Coq Require Import ZArith QArith List Bool.
From PV Require Import Expr.Values Expr.Syntax Expr.Sem Expr.ProofsEval.
Import ListNotations.
Open Scope Q_scope.

Lemma forallb_ext_in : forall (A : Type) (f g : A -> bool) l, (forall x, In x l -> f x = g x) -> forallb f l = forallb g l.
Proof.
  intros A f g l H. induction l as [|x r IH]; [reflexivity|]. cbn. rewrite (H x (or_introl eq_refl)), IH; [reflexivity|].
  intros y Hy. apply H. right. assumption.
Qed.

Lemma existsb_ext_in : forall (A : Type) (f g : A -> bool) l, (forall x, In x l -> f x = g x) -> existsb f l = existsb g l.
Proof.
  intros A f g l H. induction l as [|x r IH]; [reflexivity|]. cbn. rewrite (H x (or_introl eq_refl)), IH; [reflexivity|].
  intros y Hy. apply H. right. assumption.
Qed.

Lemma zlist_eqb_refl : forall s, zlist_eqb s s = true.
Proof. induction s; cbn; [reflexivity|]. rewrite Z.eqb_refl, IHs. reflexivity. Qed.

Lemma zlist_eqb_eq : forall s t, zlist_eqb s t = true <-> s = t.
Proof.
  induction s as [|x r IH]; destruct t as [|y u]; cbn; split; try discriminate; try reflexivity.
  - intros H. apply andb_true_iff in H. destruct H as [H1 H2]. apply Z.eqb_eq in H1. apply IH in H2. subst. reflexivity.
  - intros H. inversion H; subst. rewrite Z.eqb_refl. apply IH. reflexivity.
Qed.

Lemma zlist_eqb_sym : forall s t, zlist_eqb s t = zlist_eqb t s.
Proof. induction s as [|x r IH]; destruct t as [|y u]; cbn; try reflexivity. rewrite Z.eqb_sym, IH. reflexivity. Qed.

Lemma forallb_existsb_diag : forall (A : Type) (f : A -> A -> bool) l,
  (forall x, In x l -> f x x = true) -> forallb (fun x => existsb (f x) l) l = true.
Proof.
  intros A f l H. apply forallb_forall. intros x Hx. apply existsb_exists. exists x. split; [exact Hx|apply H; exact Hx].
Qed.

Theorem value_eqb_refl : forall v, value_eqb v v = true.
Proof.
  induction v using value_ind'; cbn.
  - apply Qeq_bool_refl.
  - destruct b; reflexivity.
  - apply zlist_eqb_refl.
  - rewrite Forall_forall in H. apply andb_true_intro. split.
    + apply (forallb_existsb_diag _ (fun x y => value_eqb x y)). exact H.
    + apply (forallb_existsb_diag _ (fun y x => value_eqb x y)). exact H.
Qed.

Theorem value_eqb_sym : forall a b, value_eqb a b = value_eqb b a.
Proof.
  induction a using value_ind'; intros c; destruct c as [q'|b'|s'|m]; try reflexivity.
  - cbn. apply Qeq_bool_comm.
  - cbn. destruct b, b'; reflexivity.
  - cbn. apply zlist_eqb_sym.
  - rewrite Forall_forall in H. cbn [value_eqb].
    rewrite (andb_comm (forallb (fun x => existsb (fun y => value_eqb x y) l) m)).
    f_equal.
    + apply forallb_ext_in. intros x Hx. apply existsb_ext_in. intros y _. apply H. assumption.
    + apply forallb_ext_in. intros y _. apply existsb_ext_in. intros x Hx. apply H. assumption.
Qed.

Theorem value_eqb_trans : forall a b c, value_eqb a b = true -> value_eqb b c = true -> value_eqb a c = true.
Proof.
  induction a using value_ind'; intros b' c H1 H2.
  - destruct b'; try discriminate; destruct c; try discriminate. cbn in *. eapply Qeq_bool_trans; eassumption.
  - destruct b'; try discriminate; destruct c; try discriminate. cbn in *. destruct b, b0, b1; try discriminate; reflexivity.
  - destruct b'; try discriminate; destruct c; try discriminate. cbn in *.
    apply zlist_eqb_eq in H1. apply zlist_eqb_eq in H2. subst. apply zlist_eqb_refl.
  - destruct b' as [| | |m]; try discriminate; destruct c as [| | |n]; try discriminate.
    rewrite Forall_forall in H. cbn [value_eqb] in *.
    apply andb_true_iff in H1. destruct H1 as [A1 A2]. apply andb_true_iff in H2. destruct H2 as [B1 B2].
    rewrite forallb_forall in A1, A2, B1, B2. apply andb_true_iff. split; apply forallb_forall.
    + intros x Hx. specialize (A1 x Hx). apply existsb_exists in A1. destruct A1 as [y [Hy Exy]].
      specialize (B1 y Hy). apply existsb_exists in B1. destruct B1 as [z [Hz Eyz]].
      apply existsb_exists. exists z. split; [assumption|]. eapply H; eassumption.
    + intros z Hz. specialize (B2 z Hz). apply existsb_exists in B2. destruct B2 as [y [Hy Eyz]].
      specialize (A2 y Hy). apply existsb_exists in A2. destruct A2 as [x [Hx Exy]].
      apply existsb_exists. exists x. split; [assumption|]. eapply H; eassumption.
Qed.

Lemma vmem_compat : forall x y l, value_eqb x y = true -> vmem x l = vmem y l.
Proof.
  intros x y l E. unfold vmem. apply existsb_ext_in. intros z _.
  destruct (value_eqb x z) eqn:A; destruct (value_eqb y z) eqn:B; try reflexivity.
  - rewrite value_eqb_sym in E. rewrite (value_eqb_trans _ _ _ E A) in B. discriminate.
  - rewrite (value_eqb_trans _ _ _ E B) in A. discriminate.
Qed.

Lemma vmem_app : forall x a b, vmem x (a ++ b) = vmem x a || vmem x b.
Proof. intros. unfold vmem. apply existsb_app. Qed.

Lemma vmem_cons : forall x y r, vmem x (y :: r) = value_eqb x y || vmem x r.
Proof. reflexivity. Qed.

Lemma vmem_dedup : forall x l, vmem x (vdedup l) = vmem x l.
Proof.
  intros x. induction l as [|y r IH]; [reflexivity|]. cbn [vdedup]. destruct (vmem y r) eqn:M.
  - rewrite IH, vmem_cons. destruct (value_eqb x y) eqn:E; [|reflexivity]. cbn [orb]. rewrite (vmem_compat x y r E). exact M.
  - rewrite !vmem_cons, IH. reflexivity.
Qed.

Lemma vmem_filter : forall x f l, (forall a b, value_eqb a b = true -> f a = f b) -> vmem x (filter f l) = vmem x l && f x.
Proof.
  intros x f l Hf. induction l as [|y r IH]; [reflexivity|]. cbn [filter]. destruct (f y) eqn:F.
  - rewrite !vmem_cons, IH. destruct (value_eqb x y) eqn:E; cbn [orb]; [|reflexivity]. rewrite (Hf x y E), F. reflexivity.
  - rewrite vmem_cons, IH. destruct (value_eqb x y) eqn:E; cbn [orb]; [|reflexivity]. rewrite (Hf x y E), F. rewrite andb_false_r. reflexivity.
Qed.

Theorem vmem_union : forall x a b, vmem x (vunion a b) = vmem x a || vmem x b.
Proof. intros. unfold vunion. rewrite vmem_dedup. apply vmem_app. Qed.

Theorem vmem_inter : forall x a b, vmem x (vinter a b) = vmem x a && vmem x b.
Proof. intros. unfold vinter. apply vmem_filter. intros u v E. apply vmem_compat. assumption. Qed.

Theorem vmem_symdiff : forall x a b, vmem x (vsymdiff a b) = xorb (vmem x a) (vmem x b).
Proof.
  intros. unfold vsymdiff. rewrite vmem_app.
  rewrite (vmem_filter x (fun y => negb (vmem y b)) a) by (intros u v E; rewrite (vmem_compat u v b E); reflexivity).
  rewrite (vmem_filter x (fun y => negb (vmem y a)) b) by (intros u v E; rewrite (vmem_compat u v a E); reflexivity).
  destruct (vmem x a), (vmem x b); reflexivity.
Qed.

Theorem vsubset_spec : forall a b, vsubset a b = true <-> forall x, vmem x a = true -> vmem x b = true.
Proof.
  intros a b. unfold vsubset. rewrite forallb_forall. split.
  - intros H x Hx. unfold vmem in Hx. apply existsb_exists in Hx. destruct Hx as [y [Hy E]].
    rewrite (vmem_compat x y b E). apply H. assumption.
  - intros H x Hx. apply H. unfold vmem. apply existsb_exists. exists x. split; [assumption|apply value_eqb_refl].
Qed.

Theorem vseteq_spec : forall a b, vseteq a b = true <-> forall x, vmem x a = vmem x b.
Proof.
  intros a b. unfold vseteq. rewrite andb_true_iff, !vsubset_spec. split.
  - intros [H1 H2] x. destruct (vmem x a) eqn:A; destruct (vmem x b) eqn:B; try reflexivity.
    + rewrite (H1 x A) in B. discriminate.
    + rewrite (H2 x B) in A. discriminate.
  - intros H. split; intros x Hx; [rewrite <- H|rewrite H]; assumption.
Qed.

Theorem set_value_eqb : forall a b, value_eqb (VSet a) (VSet b) = vseteq a b.
Proof.
  intros a b. cbn [value_eqb]. unfold vseteq, vsubset, vmem. f_equal.
  apply forallb_ext_in. intros y _. apply existsb_ext_in. intros x _. apply value_eqb_sym.
Qed.

(* the result of a set operation has no duplicates *)
Fixpoint vnodup (l : list value) : bool :=
  match l with [] => true | x :: r => negb (vmem x r) && vnodup r end.

Lemma vnodup_dedup : forall l, vnodup (vdedup l) = true.
Proof.
  induction l as [|x r IH]; [reflexivity|]. cbn [vdedup]. destruct (vmem x r) eqn:M; [assumption|].
  cbn [vnodup]. rewrite vmem_dedup, M, IH. reflexivity.
Qed.

(* C04_set_laws *)
Theorem set_laws :
  (forall v, value_eqb v v = true)
  /\ (forall a b, value_eqb a b = value_eqb b a)
  /\ (forall a b c, value_eqb a b = true -> value_eqb b c = true -> value_eqb a c = true)
  /\ (forall x a b, vmem x (vunion a b) = vmem x a || vmem x b)
  /\ (forall x a b, vmem x (vinter a b) = vmem x a && vmem x b)
  /\ (forall x a b, vmem x (vsymdiff a b) = xorb (vmem x a) (vmem x b))
  /\ (forall a b, vsubset a b = true <-> forall x, vmem x a = true -> vmem x b = true)
  /\ (forall a b, value_eqb (VSet a) (VSet b) = true <-> forall x, vmem x a = vmem x b)
  /\ (forall l, vnodup (vdedup l) = true)
  /\ (forall o b l, lift_l o b (VSet l) = set_of (map (lift_l o b) l) /\ lift_r o b (VSet l) = set_of (map (lift_r o b) l)).
Proof.
  split; [exact value_eqb_refl|]. split; [exact value_eqb_sym|]. split; [exact value_eqb_trans|].
  split; [exact vmem_union|]. split; [exact vmem_inter|]. split; [exact vmem_symdiff|]. split; [exact vsubset_spec|].
  split; [intros a b; rewrite set_value_eqb; apply vseteq_spec|]. split; [exact vnodup_dedup|split; reflexivity].
Qed.

(* reduce_with keeps the accumulator unless the next element is at or below it in the total preorder le, so the
   result is a least element for le in any order of the elements; le is <= for min and >= for max *)
Section Extremum.
Variable le : Q -> Q -> Prop.
Variable leb : Q -> Q -> bool.
Hypothesis leb_spec : forall x y, leb x y = true <-> le x y.
Hypothesis le_refl : forall x, le x x.
Hypothesis le_trans : forall x y z, le x y -> le y z -> le x z.
Hypothesis le_total : forall x y, le x y \/ le y x.
Variable pick : value -> value -> res.
Hypothesis pick_spec : forall a y, pick (VRat a) (VRat y) = Ok (VBool (negb (leb y a))).

Lemma reduce_extremum : forall a qs,
  exists m, reduce_with pick (map VRat (a :: qs)) = Ok (VRat m) /\ In m (a :: qs) /\ forall x, In x (a :: qs) -> le m x.
Proof.
  intros a qs. unfold reduce_with. cbn [map]. revert a. induction qs as [|y r IH]; intros a; cbn [map fold_left].
  - exists a. split; [reflexivity|]. split; [left; reflexivity|]. intros x [<-|[]]. apply le_refl.
  - rewrite pick_spec. destruct (leb y a) eqn:E; cbn [negb].
    + destruct (IH y) as [m [F [I L]]]. exists m. split; [exact F|]. split; [right; exact I|].
      intros x [<-|Hx]; [|apply L; exact Hx]. apply le_trans with y; [apply L; left; reflexivity|apply leb_spec; exact E].
    + assert (le a y) as Hay by (destruct (le_total a y) as [H|H]; [exact H|apply leb_spec in H; congruence]).
      destruct (IH a) as [m [F [I L]]]. exists m. split; [exact F|]. split.
      * destruct I as [<-|I]; [left; reflexivity|right; right; exact I].
      * intros x [<-|[<-|Hx]]; [apply L; left; reflexivity| |apply L; right; exact Hx].
        apply le_trans with a; [apply L; left; reflexivity|exact Hay].
Qed.
End Extremum.

Lemma Qle_total : forall x y, x <= y \/ y <= x.
Proof. intros x y. destruct (Qlt_le_dec x y) as [H|H]; [left; apply Qlt_le_weak; exact H|right; exact H]. Qed.

(* C04_min_max *)
Theorem min_max : forall a qs,
  (exists m, reduce_with (sem_bin BLt) (map VRat (a :: qs)) = Ok (VRat m) /\ In m (a :: qs) /\ forall x, In x (a :: qs) -> m <= x)
  /\ (exists m, reduce_with (sem_bin BGt) (map VRat (a :: qs)) = Ok (VRat m) /\ In m (a :: qs) /\ forall x, In x (a :: qs) -> x <= m).
Proof.
  intros a qs. split.
  - apply (reduce_extremum Qle Qle_bool Qle_bool_iff Qle_refl Qle_trans Qle_total). reflexivity.
  - apply (reduce_extremum (fun x y => y <= x) (fun x y => Qle_bool y x)).
    + intros x y. apply Qle_bool_iff.
    + intros x. apply Qle_refl.
    + intros x y z H1 H2. apply Qle_trans with y; assumption.
    + intros x y. apply Qle_total.
    + reflexivity.
Qed.
