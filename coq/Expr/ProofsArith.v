(* C04 - Python's Fraction formulas for % and ** (Expr/Eval.v) compute the mathematical operations (Expr/Sem.v) *)
From Coq Require Import ZArith QArith Qround Qpower Qreduction List Bool Lia.
From PV Require Import Expr.Values Expr.Sem Expr.Eval.
Import ListNotations.

Lemma q_is_zero_false : forall q, q_is_zero q = false -> (Qnum q <> 0)%Z.
Proof.
  intros q H E. unfold q_is_zero in H. assert (q == 0) as Z by (unfold Qeq; cbn; lia).
  apply Qeq_eq_bool in Z. congruence.
Qed.

Lemma q_is_zero_true : forall q, q_is_zero q = true -> (Qnum q = 0)%Z.
Proof. intros q H. apply Qeq_bool_eq in H. unfold Qeq in H. cbn in H. lia. Qed.

Lemma Qfloor_div : forall p q, (Qnum q <> 0)%Z ->
  Qfloor (p / q) = ((Qnum p * QDen q) / (Qnum q * QDen p))%Z.
Proof.
  intros [np dp] [nq dq] H. cbn [Qnum Qden] in *. unfold Qdiv, Qinv. cbn [Qnum].
  destruct nq as [|n|n]; [contradiction H; reflexivity| |]; cbn [Qfloor Qmult Qnum Qden]; rewrite Pos2Z.inj_mul.
  - f_equal. lia.
  - rewrite <- (Z.div_opp_opp (np * Zpos dq)) by lia. f_equal; lia.
Qed.

(* Fraction.__mod__ is a - b * floor(a / b) *)
Lemma py_mod_correct : forall p q, (Qnum q <> 0)%Z -> py_mod p q == sem_mod p q.
Proof.
  intros p q H. unfold sem_mod. rewrite (Qfloor_div p q H). unfold py_mod.
  destruct p as [np dp], q as [nq dq]. cbn [Qnum Qden] in *. rewrite Z.mod_eq by lia.
  unfold Qeq, Qminus, Qplus, Qopp, Qmult, inject_Z. cbn [Qnum Qden]. rewrite !Pos2Z.inj_mul. ring.
Qed.

Lemma py_mod_qnorm : forall p q, q_is_zero q = false -> qnorm (py_mod p q) = qnorm (sem_mod p q).
Proof.
  intros p q H. unfold qnorm. f_equal. apply Qred_complete. apply py_mod_correct. apply q_is_zero_false. assumption.
Qed.

Lemma to_pos_pow : forall (d : positive) (n : Z), (0 <= n)%Z -> Zpos (Z.to_pos (Zpos d ^ n)) = (Zpos d ^ n)%Z.
Proof. intros d n H. apply Z2Pos.id. apply Z.pow_pos_nonneg; lia. Qed.

Lemma Qpower_nonneg_decomp : forall (a : Z) (d : positive) (n : Z), (0 <= n)%Z ->
  Qpower (a # d) n == Qmake (a ^ n) (Z.to_pos (Zpos d ^ n)).
Proof.
  intros a d n H. destruct n as [|p|p]; [reflexivity| |lia].
  cbn [Qpower]. rewrite Qpower_decomp_positive. unfold Qeq. cbn [Qnum Qden].
  rewrite to_pos_pow by lia. rewrite Pos2Z.inj_pow. reflexivity.
Qed.

Lemma Qinv_unique : forall x y, x * y == 1 -> x == / y.
Proof.
  intros x y H. assert (~ y == 0) as Hy.
  { intro E. rewrite E in H. rewrite Qmult_0_r in H. discriminate H. }
  rewrite <- (Qmult_1_r x). rewrite <- (Qmult_inv_r y Hy). rewrite Qmult_assoc, H. apply Qmult_1_l.
Qed.

Lemma Qpower_neg : forall a (n : Z), (n < 0)%Z -> Qpower a n == / Qpower a (- n).
Proof. intros a n H. destruct n as [|p|p]; try lia. reflexivity. Qed.

Lemma Qinv_pow : forall (m : Z) (d : positive) (k dn mn : Z), (0 <= k)%Z -> (0 < mn)%Z -> (dn * m = mn * Zpos d)%Z ->
  Qmake (dn ^ k) (Z.to_pos (mn ^ k)) == / Qpower (m # d) k.
Proof.
  intros m d k dn mn Hk Hmn Hx. apply Qinv_unique. rewrite (Qpower_nonneg_decomp m d k Hk).
  assert (0 < mn ^ k)%Z as Hp by (apply Z.pow_pos_nonneg; lia).
  unfold Qeq, Qmult. cbn [Qnum Qden]. rewrite !Pos2Z.inj_mul, (to_pos_pow d k Hk), (Z2Pos.id _ Hp).
  rewrite Z.mul_1_l, Z.mul_1_r, <- !Z.pow_mul_l. f_equal. exact Hx.
Qed.

(* Fraction.__pow__ with an integer exponent is the power; ZeroDivisionError exactly for 0 ** negative *)
Lemma py_pow_correct : forall a n,
  match py_pow_int a n with
  | Some x => x == Qpower a n /\ ~ (a == 0 /\ (n < 0)%Z)
  | None => a == 0 /\ (n < 0)%Z
  end.
Proof.
  intros a n. unfold py_pow_int.
  assert (Qpower a n == Qpower (Qred a) n) as E by (rewrite (Qred_correct a); reflexivity).
  assert (a == 0 <-> Qnum (Qred a) = 0%Z) as Z0.
  { rewrite <- (Qred_correct a) at 1. unfold Qeq. cbn. split; lia. }
  destruct (Qred a) as [m d]. cbn [Qnum Qden] in *.
  destruct (0 <=? n)%Z eqn:N0.
  - apply Z.leb_le in N0. split; [|intros [_ X]; lia]. rewrite E. symmetry. apply Qpower_nonneg_decomp. assumption.
  - apply Z.leb_gt in N0. destruct (0 <? m)%Z eqn:M0.
    + apply Z.ltb_lt in M0. split; [|intros [X _]; apply Z0 in X; lia].
      rewrite E, (Qpower_neg _ n N0). apply Qinv_pow; [lia|lia|ring].
    + apply Z.ltb_ge in M0. destruct (m =? 0)%Z eqn:M1.
      * apply Z.eqb_eq in M1. split; [apply Z0; assumption|assumption].
      * apply Z.eqb_neq in M1. split; [|intros [X _]; apply Z0 in X; lia].
        rewrite E, (Qpower_neg _ n N0). apply Qinv_pow; [lia|lia|ring].
Qed.

Lemma py_pow_sem : forall p q, is_int q = true ->
  match py_pow_int p (qnum q) with Some x => Ok (qnorm x) | None => Rej end = sem_pow p q.
Proof.
  intros p q Hq. unfold sem_pow. rewrite Hq. pose proof (py_pow_correct p (qnum q)) as H.
  destruct (py_pow_int p (qnum q)) as [x|].
  - destruct H as [Hx Hn]. destruct (q_is_zero p && (qnum q <? 0)%Z) eqn:Zc.
    + exfalso. apply andb_true_iff in Zc. destruct Zc as [Z1 Z2]. apply Hn. split.
      * apply Qeq_bool_eq. exact Z1.
      * apply Z.ltb_lt. exact Z2.
    + unfold qnorm. do 2 f_equal. apply Qred_complete. exact Hx.
  - destruct H as [H1 H2]. unfold q_is_zero. rewrite (Qeq_eq_bool _ _ H1). apply Z.ltb_lt in H2. rewrite H2. reflexivity.
Qed.
