(* C04 - the rendered tokens derive, by the grammar's own rules, exactly the tree that is evaluated *)
From Coq Require Import ZArith List Bool Arith Lia.
From PV Require Import Expr.Syntax Expr.Sem Expr.Eval Expr.Grammar Expr.ProofsEval.
Import ListNotations.
Open Scope nat_scope.

Lemma derives_le9 : forall L ts e, Derives L ts e -> L <= 9.
Proof. intros L ts e H. induction H; lia. Qed.

Lemma derives_weaken : forall L L' ts e, Derives L ts e -> L' <= L -> Derives L' ts e.
Proof.
  intros L L' ts e H Hle. revert H. induction Hle as [|M _ IH]; intros H; [exact H|].
  apply IH, D_down; [apply derives_le9 in H; lia|exact H].
Qed.

Lemma level_le9 : forall e, level e <= 9.
Proof. destruct e; cbn; try lia. - destruct o; lia. - destruct o; cbn; lia. Qed.

Lemma level_parenthesize : forall e, level (parenthesize e) = level e.
Proof. destruct e; try reflexivity. - destruct o; reflexivity. - destruct o; reflexivity. Qed.

(* a prefix operator: the rule of its operand, its own rule, its token *)
Definition un_operand (u : unop) : nat := match u with UNot => 1 | _ => 7 end.
Definition un_level (u : unop) : nat := match u with UNot => 1 | _ => 6 end.
Definition un_tok (u : unop) : token :=
  match u with UNot => TSym SBang | UPos => TSym (SBin BAdd) | UNeg => TSym (SBin BSub) end.

Lemma render_un : forall u a, render (EUn u a) = un_tok u :: render a.
Proof. destruct u; reflexivity. Qed.

Lemma level_un : forall u a, level (EUn u a) = un_level u.
Proof. destruct u; reflexivity. Qed.

Lemma parenthesize_un : forall u a, parenthesize (EUn u a) = EUn u (wrap (un_operand u) (parenthesize a)).
Proof. destruct u; reflexivity. Qed.

Lemma parenthesize_chain : forall o a b, o <> BPow ->
  parenthesize (EBin o a b) = EBin o (wrap (oplevel o) (parenthesize a)) (wrap (S (oplevel o)) (parenthesize b)).
Proof. intros o a b H. destruct o; try reflexivity. congruence. Qed.

Lemma chain_op : forall o, o <> BPow -> is_chain_level (oplevel o) = true.
Proof. intros o H. destruct o; try reflexivity. congruence. Qed.

Lemma pow_or_chain : forall o, o = BPow \/ o <> BPow.
Proof. destruct o; try (right; discriminate). left. reflexivity. Qed.

Lemma oplevel_le7 : forall o, oplevel o <= 7.
Proof. destruct o; cbn; lia. Qed.

(* wrap puts an operand in parentheses when its level is below what its position asks for, so a property that each
   constructor preserves under that level condition on the operands holds of parenthesize e *)
Lemma parenthesize_ind : forall P : expr -> Prop,
  (forall l, P (ELit l)) ->
  (forall n, P (EIdent n)) ->
  (forall es, Forall P es -> P (ESet es)) ->
  (forall a, P a -> P (EPar a)) ->
  (forall u a, un_operand u <= level a -> P a -> P (EUn u a)) ->
  (forall a b, 8 <= level a -> 6 <= level b -> P a -> P b -> P (EBin BPow a b)) ->
  (forall o a b, o <> BPow -> oplevel o <= level a -> S (oplevel o) <= level b -> P a -> P b -> P (EBin o a b)) ->
  (forall a n, 8 <= level a -> P a -> P (EAttr a n)) ->
  forall e, P (parenthesize e).
Proof.
  intros P Hlit Hid Hset Hpar Hun Hpow Hchain Hattr.
  assert (forall L x, L <= 9 -> P x -> L <= level (wrap L x) /\ P (wrap L x)) as W.
  { intros L x HL Hx. unfold wrap. destruct (L <=? level x) eqn:E.
    - split; [apply Nat.leb_le; exact E|exact Hx].
    - split; [exact HL|apply Hpar; exact Hx]. }
  induction e using expr_ind'.
  - apply Hlit.
  - apply Hid.
  - apply Hset, Forall_map. assumption.
  - assert (un_operand o <= 9) as H9 by (destruct o; cbn; lia).
    rewrite parenthesize_un. apply Hun; apply W; assumption.
  - destruct (pow_or_chain o) as [->|Ho].
    + apply Hpow; apply W; try assumption; lia.
    + pose proof (oplevel_le7 o). rewrite parenthesize_chain by exact Ho. apply Hchain; try apply W; try assumption; lia.
  - apply Hattr; apply W; try assumption; lia.
  - apply Hpar. assumption.
Qed.

Lemma derives_list : forall es,
  Forall (fun e => Derives (level e) (render e) e) es -> DerivesList (map render es) es.
Proof.
  intros es H. induction H as [|e r He Hr IH]; cbn; constructor; [|exact IH].
  eapply derives_weaken; [exact He|lia].
Qed.

Lemma render_derives : forall e, Derives (level (parenthesize e)) (render (parenthesize e)) (parenthesize e).
Proof.
  apply (parenthesize_ind (fun e => Derives (level e) (render e) e)).
  - apply D_lit.
  - apply D_ident.
  - intros es H. apply D_set, derives_list, H.
  - intros a H. apply D_par. eapply derives_weaken; [exact H|lia].
  - intros u a L H. destruct u; constructor; eapply derives_weaken; eassumption.
  - intros a b La Lb Ha Hb. apply D_pow; eapply derives_weaken; eassumption.
  - intros o a b Ho La Lb Ha Hb.
    apply D_chain; [apply chain_op; exact Ho|reflexivity|eapply derives_weaken; eassumption ..].
  - intros a n L H. apply D_attr. eapply derives_weaken; eassumption.
Qed.

(* C04_precedence, part 1 *)
Theorem render_min_derives : forall e, Derives 0 (render_min e) (parenthesize e).
Proof. intros e. unfold render_min. eapply derives_weaken; [apply render_derives|lia]. Qed.

(* parentheses change nothing but grouping *)
Lemma strip_wrap : forall L x, strip (wrap L x) = strip x.
Proof. intros L x. unfold wrap. destruct (L <=? level x); reflexivity. Qed.

Theorem strip_parenthesize : forall e, strip (parenthesize e) = strip e.
Proof.
  induction e using expr_ind'; try reflexivity.
  - cbn [parenthesize strip]. f_equal. rewrite map_map. apply map_ext_Forall. assumption.
  - rewrite parenthesize_un. cbn [strip]. rewrite strip_wrap, IHe. reflexivity.
  - destruct (pow_or_chain o) as [->|Ho]; [|rewrite (parenthesize_chain o e1 e2 Ho)]; cbn [parenthesize strip];
      rewrite !strip_wrap, IHe1, IHe2; reflexivity.
  - cbn [parenthesize strip]. rewrite strip_wrap, IHe. reflexivity.
  - cbn [parenthesize strip]. exact IHe.
Qed.

Theorem eval_strip : forall bin g e, eval_with bin g (strip e) = eval_with bin g e.
Proof.
  intros bin g. induction e using expr_ind'; try reflexivity.
  - cbn [strip eval_with]. f_equal. rewrite map_map. apply map_ext_Forall. assumption.
  - cbn [strip eval_with]. rewrite IHe. reflexivity.
  - cbn [strip eval_with]. rewrite IHe1, IHe2. reflexivity.
  - cbn [strip eval_with]. rewrite IHe. reflexivity.
  - cbn [strip eval_with]. exact IHe.
Qed.

Theorem eval_parenthesize : forall g e, eval g (parenthesize e) = eval g e.
Proof.
  intros g e. unfold eval. rewrite <- (eval_strip disp g (parenthesize e)), strip_parenthesize. apply eval_strip.
Qed.

(* C04_precedence *)
Theorem precedence : forall e,
  Derives 0 (render_min e) (parenthesize e)
  /\ strip (parenthesize e) = strip e
  /\ (forall g, eval g (parenthesize e) = eval g e).
Proof.
  intros e. split; [apply render_min_derives|]. split; [apply strip_parenthesize|]. intros g. apply eval_parenthesize.
Qed.

(* the classical precedence probes, as derivations of concrete token lists *)
Definition n1 := ELit (LInt [49%Z]).
Definition n2 := ELit (LInt [50%Z]).
Definition n3 := ELit (LInt [51%Z]).
Definition t1 := TLit (LInt [49%Z]).
Definition t2 := TLit (LInt [50%Z]).
Definition t3 := TLit (LInt [51%Z]).
Definition bt := ELit (LBool true).
Definition bf := ELit (LBool false).

Lemma probe_sub_right_needs_parens :
  render_min (EBin BSub n1 (EBin BSub n2 n3)) = [t1; TSym (SBin BSub); TSym SLPar; t2; TSym (SBin BSub); t3; TSym SRPar].
Proof. reflexivity. Qed.

(* C04_precedence_probes *)
Theorem precedence_probes :
  Derives 0 [t1; TSym (SBin BSub); t2; TSym (SBin BSub); t3] (EBin BSub (EBin BSub n1 n2) n3)
  /\ render_min (EBin BSub n1 (EBin BSub n2 n3)) = [t1; TSym (SBin BSub); TSym SLPar; t2; TSym (SBin BSub); t3; TSym SRPar]
  /\ Derives 0 [t1; TSym (SBin BPow); t2; TSym (SBin BPow); t3] (EBin BPow n1 (EBin BPow n2 n3))
  /\ Derives 0 [TSym (SBin BSub); t1; TSym (SBin BPow); t2] (EUn UNeg (EBin BPow n1 n2))
  /\ Derives 0 [t1; TSym (SBin BPow); TSym (SBin BSub); t2] (EBin BPow n1 (EUn UNeg n2))
  /\ Derives 0 [TLit (LBool true); TSym (SBin BOr); TLit (LBool false); TSym (SBin BAnd); TLit (LBool false)]
               (EBin BAnd (EBin BOr bt bf) bf)
  /\ Derives 0 [t1; TSym (SBin BAdd); t2; TSym (SBin BMul); t3] (EBin BAdd n1 (EBin BMul n2 n3))
  /\ Derives 0 [TSym SBang; TLit (LBool true); TSym (SBin BEq); TLit (LBool false)] (EUn UNot (EBin BEq bt bf)).
Proof.
  repeat split.
  - exact (render_min_derives (EBin BSub (EBin BSub n1 n2) n3)).
  - exact (render_min_derives (EBin BPow n1 (EBin BPow n2 n3))).
  - exact (render_min_derives (EUn UNeg (EBin BPow n1 n2))).
  - exact (render_min_derives (EBin BPow n1 (EUn UNeg n2))).
  - exact (render_min_derives (EBin BAnd (EBin BOr bt bf) bf)).
  - exact (render_min_derives (EBin BAdd n1 (EBin BMul n2 n3))).
  - exact (render_min_derives (EUn UNot (EBin BEq bt bf))).
Qed.
