(* C04 - the deterministic PEG model (Expr/Parser.v) against the grammar: what it returns the grammar derives, and it
   reads the rendering of a tree back as that tree (with the renderer's parentheses) within the fuel of parse_expr *)
From Coq Require Import ZArith List Bool Arith Lia.
From PV Require Import Expr.Syntax Expr.Grammar Expr.Parser Expr.ProofsEval Expr.ProofsGrammar.
Import ListNotations.
Open Scope nat_scope.

Definition comma_join (tss : list (list token)) : list token := flat_map (fun ts => TSym SComma :: ts) tss.

Lemma join_comma_cons : forall u tss, join_comma (u :: tss) = u ++ comma_join tss.
Proof.
  intros u tss. revert u. induction tss as [|v r IH]; intros u; cbn.
  - rewrite app_nil_r. reflexivity.
  - cbn in IH. rewrite (IH v). reflexivity.
Qed.

Lemma derives_list_app : forall tss1 es1 tss2 es2,
  DerivesList tss1 es1 -> DerivesList tss2 es2 -> DerivesList (tss1 ++ tss2) (es1 ++ es2).
Proof. intros tss1 es1 tss2 es2 H1 H2. induction H1; cbn; [assumption|]. constructor; assumption. Qed.

Lemma text_eqb_eq : forall a b, text_eqb a b = true -> a = b.
Proof.
  induction a as [|x r IH]; destruct b as [|y s]; cbn; try discriminate; [reflexivity|].
  intros H. apply andb_true_iff in H. destruct H as [H1 H2]. apply Z.eqb_eq in H1. apply IH in H2. subst. reflexivity.
Qed.

Lemma lit_eqb_eq : forall a b, lit_eqb a b = true -> a = b.
Proof.
  destruct a as [s|s|s|x], b as [t|t|t|y]; cbn; try discriminate; intros H; try (apply text_eqb_eq in H; subst; reflexivity).
  destruct x, y; try discriminate; reflexivity.
Qed.

(* one step of run, rule by rule *)
(* the rule goes on with the phrase just read *)
Definition then_expr (p : pres) (k : expr -> list token -> pres) : pres :=
  match p with POk (AExpr a rest) => k a rest | POk _ | PFail => PFail | PFuel => PFuel end.

(* an optional or repeated group: if it does not match, the rule ends with d *)
Definition else_expr (p : pres) (k : expr -> list token -> pres) (d : pres) : pres :=
  match p with POk (AExpr a rest) => k a rest | PFuel => PFuel | _ => d end.

Lemma then_expr_ok : forall p k res, then_expr p k = POk res ->
  exists a rest, p = POk (AExpr a rest) /\ k a rest = POk res.
Proof. intros [[a rest|? ?]| |] k res H; try discriminate H. exists a, rest. split; [reflexivity|exact H]. Qed.

Lemma else_expr_ok : forall p k d res, else_expr p k d = POk res ->
  (exists a rest, p = POk (AExpr a rest) /\ k a rest = POk res) \/ d = POk res.
Proof.
  intros [[a rest|? ?]| |] k d res H; try discriminate H; try (right; exact H).
  left. exists a, rest. split; [reflexivity|exact H].
Qed.

(* X = Y loop*: the chain rules, and ex_attribute with its "." identifier loop *)
Definition is_loop_level (L : nat) : bool := is_chain_level L || (L =? 8).
Definition loop (L : nat) (a : expr) : req := if L =? 8 then RAttr a else RChain L a.

Lemma run_loop_level : forall L f ts, is_loop_level L = true ->
  run (S f) (RLevel L) ts = then_expr (run f (RLevel (S L)) ts) (fun a rest => run f (loop L a) rest).
Proof.
  intros L f ts H. destruct L as [|[|[|[|[|[|[|[|[|L]]]]]]]]]; try discriminate H; reflexivity.
Qed.

(* X = prefix-operator operand / Y: ex_logical_not and ex_inversion *)
Definition prefix_level (L : nat) : bool := (L =? 1) || (L =? 6).

Definition prefix_tok (t : token) : option unop :=
  match t with
  | TSym SBang => Some UNot
  | TSym (SBin BAdd) => Some UPos
  | TSym (SBin BSub) => Some UNeg
  | _ => None
  end.

(* the prefix operator of rule L that ts starts with *)
Definition prefix_of (L : nat) (ts : list token) : option unop :=
  match ts with
  | t :: _ => match prefix_tok t with Some u => if un_level u =? L then Some u else None | None => None end
  | [] => None
  end.

(* the token patterns of these rules through prefix_of; over arbitrary branches, because with those of run in place
   each of the 28 cases is slow to check *)
Lemma match_prefix_1 : forall (X : Type) (A : unop -> list token -> X) (B : list token -> X) ts,
  match ts with
  | TSym SBang :: rest => A UNot rest
  | _ => B ts
  end = match prefix_of 1 ts with Some u => A u (tl ts) | None => B ts end.
Proof. intros X A B ts. destruct ts as [|[l|[[]| | | | | | |]|n] rest]; reflexivity. Qed.

Lemma match_prefix_6 : forall (X : Type) (A : unop -> list token -> X) (B : list token -> X) ts,
  match ts with
  | TSym (SBin BAdd) :: rest => A UPos rest
  | TSym (SBin BSub) :: rest => A UNeg rest
  | _ => B ts
  end = match prefix_of 6 ts with Some u => A u (tl ts) | None => B ts end.
Proof. intros X A B ts. destruct ts as [|[l|[[]| | | | | | |]|n] rest]; reflexivity. Qed.

Lemma run_prefix_level : forall L f ts, prefix_level L = true ->
  run (S f) (RLevel L) ts =
  match prefix_of L ts with
  | Some u => then_expr (run f (RLevel (un_operand u)) (tl ts)) (fun a rest => POk (AExpr (EUn u a) rest))
  | None => run f (RLevel (S L)) ts
  end.
Proof.
  intros L f ts H. destruct L as [|[|[|[|[|[|[|L]]]]]]]; try discriminate H; cbn [run].
  - exact (match_prefix_1 _ (fun u rest => then_expr (run f (RLevel (un_operand u)) rest) (fun a rest' => POk (AExpr (EUn u a) rest')))
             (fun ts => run f (RLevel 2) ts) ts).
  - exact (match_prefix_6 _ (fun u rest => then_expr (run f (RLevel (un_operand u)) rest) (fun a rest' => POk (AExpr (EUn u a) rest')))
             (fun ts => run f (RLevel 7) ts) ts).
Qed.

Lemma prefix_of_some : forall L ts u, prefix_of L ts = Some u -> L = un_level u /\ ts = un_tok u :: tl ts.
Proof.
  intros L ts u H. destruct ts as [|t rest]; [discriminate H|]. cbn [prefix_of tl] in *.
  destruct (prefix_tok t) as [v|] eqn:T; [|discriminate H]. destruct (un_level v =? L) eqn:E; [|discriminate H].
  apply Nat.eqb_eq in E. injection H as ->. split; [symmetry; exact E|].
  destruct t as [l|[[]| | | | | | |]|n]; try discriminate T; injection T as <-; reflexivity.
Qed.

Lemma prefix_of_un_tok : forall j u ts, prefix_of j (un_tok u :: ts) = if un_level u =? j then Some u else None.
Proof. destruct u; reflexivity. Qed.

Lemma derives_un : forall u ts a, Derives (un_operand u) ts a -> Derives (un_level u) (un_tok u :: ts) (EUn u a).
Proof. intros u ts a H. destruct u; constructor; exact H. Qed.

(* ex_exponential = ex_attribute ("**" ex_inversion)? *)
Lemma run_level_7 : forall f ts,
  run (S f) (RLevel 7) ts =
  then_expr (run f (RLevel 8) ts) (fun a rest =>
    match rest with
    | TSym (SBin BPow) :: rest' =>
        else_expr (run f (RLevel 6) rest') (fun b rest'' => POk (AExpr (EBin BPow a b) rest'')) (POk (AExpr a rest))
    | _ => POk (AExpr a rest)
    end).
Proof. reflexivity. Qed.

(* ts starts with the tokens a rule looks for, or every match on that pattern takes its default *)
Lemma pow_or_not : forall ts,
  (exists r, ts = TSym (SBin BPow) :: r)
  \/ (forall (X : Type) (A : list token -> X) (B : X), match ts with TSym (SBin BPow) :: r => A r | _ => B end = B).
Proof. intros ts. destruct ts as [|[l|[[]| | | | | | |]|n] r]; try (right; reflexivity). left. exists r. reflexivity. Qed.

Lemma binop_or_not : forall ts,
  (exists o r, ts = TSym (SBin o) :: r)
  \/ (forall (X : Type) (A : binop -> list token -> X) (B : X), match ts with TSym (SBin o) :: r => A o r | _ => B end = B).
Proof. intros ts. destruct ts as [|[l|[o| | | | | | |]|n] r]; try (right; reflexivity). left. exists o, r. reflexivity. Qed.

Lemma dot_or_not : forall ts,
  (exists n r, ts = TSym SDot :: TId n :: r)
  \/ (forall (X : Type) (A : list Z -> list token -> X) (B : X), match ts with TSym SDot :: TId n :: r => A n r | _ => B end = B).
Proof.
  intros ts. destruct ts as [|[l|[]|n] [|[|?|n2] r]]; try (right; reflexivity). left. exists n2, r. reflexivity.
Qed.

(* soundness: what a successful run means *)
(* a loop continues the phrase read so far *)
Definition continues (L : nat) (a : expr) (ts : list token) (res : ans) : Prop :=
  match res with
  | AExpr e rest => exists used, ts = used ++ rest /\ forall pre, Derives L pre a -> Derives L (pre ++ used) e
  | AList _ _ => False
  end.

Definition sound_ans (r : req) (ts : list token) (res : ans) : Prop :=
  match r with
  | RLevel L => match res with
                | AExpr e rest => exists used, ts = used ++ rest /\ Derives L used e
                | AList _ _ => False
                end
  | RChain L a => continues L a ts res
  | RAttr a => continues 8 a ts res
  | RList acc => match res with
                 | AList es rest => exists tss news, ts = comma_join tss ++ rest /\ es = rev acc ++ news /\ DerivesList tss news
                 | AExpr _ _ => False
                 end
  end.

Lemma continues_stop : forall L a ts, continues L a ts (AExpr a ts).
Proof. intros L a ts. exists []. split; [reflexivity|]. intros pre D. rewrite app_nil_r. exact D. Qed.

Lemma sound_loop : forall L a ts res, sound_ans (loop L a) ts res -> continues L a ts res.
Proof. intros L a ts res. unfold loop. destruct (L =? 8) eqn:E; [apply Nat.eqb_eq in E; subst L|]; exact (fun H => H). Qed.

Lemma sound_down : forall L ts res, sound_ans (RLevel (S L)) ts res -> sound_ans (RLevel L) ts res.
Proof.
  intros L ts res H. destruct res as [e rest|]; [|exact H]. destruct H as [u [E D]]. exists u. split; [exact E|].
  eapply derives_weaken; [exact D|lia].
Qed.

Lemma run_sound : forall fuel r ts res, run fuel r ts = POk res -> sound_ans r ts res.
Proof.
  induction fuel as [|f IH]; intros r ts res H; [discriminate|].
  destruct r as [L|L a|a|acc].
  - destruct (is_loop_level L) eqn:HL; [|destruct (prefix_level L) eqn:HP].
    + (* Y, then the loop continues it *)
      rewrite (run_loop_level L f ts HL) in H. apply then_expr_ok in H. destruct H as [a [rest [E1 E2]]].
      apply IH in E1. destruct E1 as [u1 [-> D1]]. apply IH, sound_loop in E2.
      destruct res as [e rest'|]; [|destruct E2]. destruct E2 as [u2 [-> D2]].
      exists (u1 ++ u2). split; [apply app_assoc|]. apply D2. eapply derives_weaken; [exact D1|lia].
    + rewrite (run_prefix_level L f ts HP) in H. destruct (prefix_of L ts) as [u|] eqn:P.
      * apply prefix_of_some in P. destruct P as [-> Ets]. rewrite Ets.
        apply then_expr_ok in H. destruct H as [a [rest [E1 E2]]]. injection E2 as <-.
        apply IH in E1. destruct E1 as [u1 [-> D1]]. exists (un_tok u :: u1). split; [reflexivity|apply derives_un; exact D1].
      * apply sound_down, IH, H.
    + destruct L as [|[|[|[|[|[|[|[|[|[|L]]]]]]]]]]; try discriminate HL; try discriminate HP; [| |discriminate H].
      * (* 7 *)
        rewrite run_level_7 in H. apply then_expr_ok in H. destruct H as [a [rest [E1 E2]]].
        apply IH in E1. destruct E1 as [u1 [-> D1]].
        assert (sound_ans (RLevel 7) (u1 ++ rest) (AExpr a rest)) as Plain.
        { exists u1. split; [reflexivity|]. eapply derives_weaken; [exact D1|lia]. }
        destruct (pow_or_not rest) as [[rest' ->]|N]; [|rewrite N in E2; injection E2 as <-; exact Plain].
        apply else_expr_ok in E2. destruct E2 as [[b [rest'' [E2 E3]]]|E2]; [|injection E2 as <-; exact Plain].
        injection E3 as <-. apply IH in E2. destruct E2 as [u2 [-> D2]].
        exists (u1 ++ TSym (SBin BPow) :: u2). split; [rewrite <- app_assoc; reflexivity|apply D_pow; assumption].
      * (* 9 *)
        cbn [run] in H. destruct ts as [|[l|s|n] rest]; try discriminate H.
        -- injection H as <-. exists [TLit l]. split; [reflexivity|apply D_lit].
        -- destruct s; try discriminate H.
           ++ (* parenthesis *)
              destruct (run f (RLevel 0) rest) as [[a [|[|[]|] rest']|? ?]| |] eqn:E1; try discriminate H.
              injection H as <-. apply IH in E1. destruct E1 as [u [-> D]].
              exists (TSym SLPar :: u ++ [TSym SRPar]). split; [cbn; rewrite <- app_assoc; reflexivity|apply D_par; exact D].
           ++ (* set literal *)
              assert (forall rest', rest = TSym SRBrace :: rest' -> sound_ans (RLevel 9) (TSym SLBrace :: rest) (AExpr (ESet []) rest')) as Empty.
              { intros rest' ->. exists [TSym SLBrace; TSym SRBrace]. split; [reflexivity|]. apply (D_set [] []). constructor. }
              destruct (run f (RLevel 0) rest) as [[a rest'|? ?]| |] eqn:E1; try discriminate H.
              2-3: destruct rest as [|[|[]|] rest']; try discriminate H; injection H as <-; apply Empty; reflexivity.
              destruct (run f (RList [a]) rest') as [[? ?|es [|[|[]|] rest'']]| |] eqn:E2; try discriminate H.
              injection H as <-. apply IH in E1. destruct E1 as [u [-> D]]. apply IH in E2. destruct E2 as [tss [news [-> [-> DL]]]].
              exists (TSym SLBrace :: join_comma (u :: tss) ++ [TSym SRBrace]). split.
              ** rewrite join_comma_cons. cbn. rewrite <- !app_assoc. reflexivity.
              ** apply (D_set (u :: tss) (a :: news)). constructor; assumption.
        -- injection H as <-. exists [TId n]. split; [reflexivity|apply D_ident].
  - (* RChain *)
    cbn [run] in H. pose proof (continues_stop L a ts) as Stop.
    destruct (binop_or_not ts) as [[o [rest ->]]|N]; [|rewrite N in H; injection H as <-; exact Stop].
    destruct ((oplevel o =? L) && is_chain_level L) eqn:C; [|injection H as <-; exact Stop].
    apply andb_true_iff in C. destruct C as [C1 C2]. apply Nat.eqb_eq in C1.
    apply else_expr_ok in H. destruct H as [[b [rest' [E1 E2]]]|H]; [|injection H as <-; exact Stop].
    apply IH in E1. destruct E1 as [u1 [-> D1]]. apply IH in E2. destruct res as [e rest''|]; [|destruct E2].
    destruct E2 as [u2 [-> D2]]. exists ((TSym (SBin o) :: u1) ++ u2). split; [cbn; rewrite <- app_assoc; reflexivity|].
    intros pre Dp. rewrite app_assoc. apply D2. apply D_chain; assumption.
  - (* RAttr *)
    cbn [run] in H. pose proof (continues_stop 8 a ts) as Stop.
    destruct (dot_or_not ts) as [[n2 [rest ->]]|N]; [|rewrite N in H; injection H as <-; exact Stop].
    apply IH in H. destruct res as [e rest'|]; [|destruct H]. destruct H as [u [-> D]].
    exists ([TSym SDot; TId n2] ++ u). split; [reflexivity|].
    intros pre Dp. rewrite app_assoc. apply D. apply D_attr. exact Dp.
  - (* RList *)
    cbn [run] in H.
    assert (sound_ans (RList acc) ts (AList (rev acc) ts)) as Stop.
    { exists [], []. split; [reflexivity|]. split; [rewrite app_nil_r; reflexivity|constructor]. }
    destruct ts as [|[l|[]|n] rest]; try (injection H as <-; exact Stop).
    apply else_expr_ok in H. destruct H as [[e [rest' [E1 E2]]]|H]; [|injection H as <-; exact Stop].
    apply IH in E1. destruct E1 as [u [-> D]]. apply IH in E2. destruct res as [|es rest'']; [destruct E2|].
    destruct E2 as [tss [news [-> [-> DL]]]].
    exists (u :: tss), (e :: news). split; [cbn; rewrite <- app_assoc; reflexivity|].
    split; [cbn; rewrite <- app_assoc; reflexivity|constructor; assumption].
Qed.

(* C04_parser_sound *)
Theorem parse_sound : forall ts e, parse_expr ts = Some e -> Derives 0 ts e.
Proof.
  intros ts e H. unfold parse_expr in H.
  destruct (run (parse_fuel ts) (RLevel 0) ts) as [[e' rest|? ?]| |] eqn:E; try discriminate.
  destruct rest; [|discriminate]. inversion H; subst. apply run_sound in E. destruct E as [u [-> D]].
  rewrite app_nil_r. assumption.
Qed.

(* completeness on renderings; first, what may follow a phrase of rule L without being absorbed by it *)
Definition follow_ok (L : nat) (rest : list token) : bool :=
  match rest with
  | TSym (SBin o) :: _ => oplevel o <? L
  | TSym SDot :: TId _ :: _ => 9 <=? L
  | _ => true
  end.

Lemma follow_mono : forall L L' rest, follow_ok L rest = true -> L <= L' -> follow_ok L' rest = true.
Proof.
  intros L L' rest H Hle. destruct rest as [|[l|[o| | | | | | |]|n] r]; try reflexivity; unfold follow_ok in *.
  - apply Nat.ltb_lt in H. apply Nat.ltb_lt. lia.
  - destruct r as [|[] r2]; try reflexivity. apply Nat.leb_le in H. apply Nat.leb_le. lia.
Qed.

Lemma follow_9 : forall rest, follow_ok 9 rest = true.
Proof.
  intros rest. destruct rest as [|[l|[o| | | | | | |]|n] r]; try reflexivity; unfold follow_ok.
  - pose proof (oplevel_le7 o). apply Nat.ltb_lt. lia.
  - destruct r as [|[] r2]; reflexivity.
Qed.

(* no operator belongs to rule 6 *)
Lemma follow_7_6 : forall rest, follow_ok 7 rest = true -> follow_ok 6 rest = true.
Proof.
  intros rest H. destruct rest as [|[l|[o| | | | | | |]|n] r]; try reflexivity; [|exact H].
  destruct o; try reflexivity; discriminate H.
Qed.

Lemma loop_stops : forall L a rest f, follow_ok L rest = true -> run (S f) (loop L a) rest = POk (AExpr a rest).
Proof.
  intros L a rest f H. unfold loop. destruct (L =? 8) eqn:E8; cbn [run].
  - apply Nat.eqb_eq in E8. subst L. destruct (dot_or_not rest) as [[n [r ->]]|N]; [discriminate H|apply N].
  - destruct (binop_or_not rest) as [[o [r ->]]|N]; [|apply N].
    apply Nat.ltb_lt in H. destruct (Nat.eqb_spec (oplevel o) L); [lia|reflexivity].
Qed.

(* one step down: a phrase of rule S j is a phrase of rule j when no prefix operator of rule j starts it and
   nothing that follows continues it *)
Lemma descend_one : forall j f ts e rest, j < 9 ->
  run f (RLevel (S j)) ts = POk (AExpr e rest) -> prefix_of j ts = None -> follow_ok j rest = true -> 1 <= f ->
  run (S f) (RLevel j) ts = POk (AExpr e rest).
Proof.
  intros j f ts e rest Hj R Hh Hf Hf1.
  destruct (is_loop_level j) eqn:HL; [|destruct (prefix_level j) eqn:HP].
  - rewrite (run_loop_level j f ts HL), R. cbn [then_expr]. destruct f as [|f]; [lia|]. apply loop_stops. exact Hf.
  - rewrite (run_prefix_level j f ts HP), Hh. exact R.
  - assert (j = 7) as -> by (destruct j as [|[|[|[|[|[|[|[|[|j]]]]]]]]]; try discriminate HL; try discriminate HP; lia).
    rewrite run_level_7, R. cbn [then_expr].
    destruct (pow_or_not rest) as [[r ->]|N]; [discriminate Hf|apply N].
Qed.

Lemma descend : forall d L f ts e rest, L + d <= 9 ->
  run f (RLevel (L + d)) ts = POk (AExpr e rest) ->
  (forall j, L <= j < L + d -> prefix_of j ts = None) -> follow_ok L rest = true -> 1 <= f ->
  run (d + f) (RLevel L) ts = POk (AExpr e rest).
Proof.
  induction d as [|d IH]; intros L f ts e rest H9 R Hh Hf Hf1.
  - rewrite Nat.add_0_r in R. exact R.
  - rewrite <- Nat.add_succ_comm in *. cbn [Nat.add]. apply descend_one; try lia; try assumption.
    + apply (IH (S L)); try assumption.
      * intros j Hj. apply Hh. lia.
      * eapply follow_mono; [exact Hf|lia].
    + apply Hh. lia.
Qed.

(* fuel: 12 per node pays for the nine rules below its own, its own step and the loop step that folds it; a node
   renders to at least one token, so this stays below parse_fuel *)
Fixpoint cost (e : expr) : nat :=
  match e with
  | ELit _ | EIdent _ => 12
  | ESet es => 12 + list_sum (map (fun x => 12 + cost x) es)
  | EUn _ a => 12 + cost a
  | EBin _ a b => 12 + cost a + cost b
  | EAttr a _ => 12 + cost a
  | EPar a => 12 + cost a
  end.

(* the length of the left spine of e at level l *)
Fixpoint steps (l : nat) (e : expr) : nat :=
  match e with
  | EBin _ a _ | EAttr a _ => if level e =? l then S (steps l a) else 1
  | _ => 1
  end.

Lemma list_sum_cons : forall a l, list_sum (a :: l) = a + list_sum l.
Proof. reflexivity. Qed.

Lemma steps_lt_cost : forall l e, steps l e < cost e.
Proof.
  intros l. induction e using expr_ind'; cbn [steps cost]; try lia.
  - destruct (level (EBin o e1 e2) =? l); lia.
  - destruct (level (EAttr e n) =? l); lia.
Qed.

Lemma steps_other : forall l e, l < level e -> steps l e = 1.
Proof.
  intros l e Hl. assert ((level e =? l) = false) as E by (apply Nat.eqb_neq; lia).
  destruct e; try reflexivity; cbn [steps]; rewrite E; reflexivity.
Qed.

Definition no_prefix_below (e : expr) : Prop := forall j rest, j < level e -> prefix_of j (render e ++ rest) = None.

Definition reads_back (e : expr) : Prop :=
  forall L rest f, L <= level e -> follow_ok L rest = true -> cost e + 9 <= f ->
  run f (RLevel L) (render e ++ rest) = POk (AExpr e rest).

(* a loop rule l up to the level of e, started on the rendering of e, reaches its loop with e folded, after
   steps l e steps *)
Definition reaches_loop (e : expr) : Prop :=
  forall l rest f, is_loop_level l = true -> l <= level e -> follow_ok (S l) rest = true ->
  (if l <? level e then cost e + 9 <= f else cost e <= steps l e + f) ->
  run (steps l e + f) (RLevel l) (render e ++ rest) = run f (loop l e) rest.

Definition parse_inv (e : expr) : Prop := no_prefix_below e /\ reads_back e /\ reaches_loop e.

(* the same two at the level of e only *)
Definition reads_back_own (e : expr) : Prop :=
  forall rest f, follow_ok (level e) rest = true -> cost e <= f ->
  run f (RLevel (level e)) (render e ++ rest) = POk (AExpr e rest).

Definition reaches_loop_own (e : expr) : Prop :=
  forall rest f, follow_ok (S (level e)) rest = true -> cost e <= steps (level e) e + f ->
  run (steps (level e) e + f) (RLevel (level e)) (render e ++ rest) = run f (loop (level e) e) rest.

Lemma reads_back_from_own : forall e, no_prefix_below e -> reads_back_own e -> reads_back e.
Proof.
  intros e He O L rest f HL Hf Hc. pose proof (level_le9 e) as H9. pose proof (steps_lt_cost 0 e) as Hpos.
  replace f with ((level e - L) + (f - (level e - L))) by lia.
  apply descend; try lia; try assumption; replace (L + (level e - L)) with (level e) by lia.
  - apply O; [eapply follow_mono; [exact Hf|lia]|lia].
  - intros j Hj. apply He. lia.
Qed.

Lemma loop_low : forall e l rest f, reads_back e -> is_loop_level l = true -> l < level e -> follow_ok (S l) rest = true ->
  cost e + 9 <= f -> run (steps l e + f) (RLevel l) (render e ++ rest) = run f (loop l e) rest.
Proof.
  intros e l rest f HT Hc Hl Hf Hb. rewrite (steps_other l e Hl). cbn [Nat.add].
  rewrite (run_loop_level l f _ Hc), (HT (S l) rest f); try assumption; try lia. reflexivity.
Qed.

(* everything about e follows from its behaviour at its own level *)
Lemma inv_plain : forall e, is_loop_level (level e) = false -> no_prefix_below e -> reads_back_own e -> parse_inv e.
Proof.
  intros e Hn He O. pose proof (reads_back_from_own e He O) as HT. split; [exact He|]. split; [exact HT|].
  intros l rest f Hc Hl Hf Hb. assert (l < level e) as Hlt.
  { destruct (Nat.eq_dec l (level e)) as [->|]; [congruence|lia]. }
  apply Nat.ltb_lt in Hlt as E. rewrite E in Hb. apply loop_low; assumption.
Qed.

Lemma inv_loop : forall e, is_loop_level (level e) = true -> no_prefix_below e -> reaches_loop_own e -> parse_inv e.
Proof.
  intros e Hc He LO.
  assert (reads_back_own e) as O.
  { intros rest F Hf HF. pose proof (steps_lt_cost (level e) e) as Hs.
    replace F with (steps (level e) e + (F - steps (level e) e)) by lia.
    rewrite LO; [|eapply follow_mono; [exact Hf|lia]|lia].
    destruct (F - steps (level e) e) as [|f'] eqn:EF; [lia|]. apply loop_stops. exact Hf. }
  pose proof (reads_back_from_own e He O) as HT. split; [exact He|]. split; [exact HT|].
  intros l rest f Hcl Hl Hf Hb. destruct (l <? level e) eqn:E.
  - apply Nat.ltb_lt in E. apply loop_low; assumption.
  - apply Nat.ltb_ge in E. assert (l = level e) as -> by lia. apply LO; assumption.
Qed.

Lemma head_left : forall e a ts, render e = render a ++ ts -> level e <= level a -> no_prefix_below a -> no_prefix_below e.
Proof. intros e a ts Er Hl Ha j rest Hj. rewrite Er, <- app_assoc. apply Ha. lia. Qed.

Lemma inv_lit : forall l, parse_inv (ELit l).
Proof.
  intros l. apply inv_plain; [reflexivity|intros j rest _; reflexivity|].
  intros rest f _ Hc. destruct f as [|f]; [cbn in Hc; lia|]. reflexivity.
Qed.

Lemma inv_ident : forall n, parse_inv (EIdent n).
Proof.
  intros n. apply inv_plain; [reflexivity|intros j rest _; reflexivity|].
  intros rest f _ Hc. destruct f as [|f]; [cbn in Hc; lia|]. reflexivity.
Qed.

Lemma inv_par : forall a, parse_inv a -> parse_inv (EPar a).
Proof.
  intros a [_ [Ta _]]. apply inv_plain; [reflexivity|intros j rest _; reflexivity|].
  intros rest f _ Hc. cbn [cost] in Hc. destruct f as [|f]; [lia|].
  cbn [render level]. cbn [app]. rewrite <- app_assoc. cbn [app run].
  rewrite (Ta 0 (TSym SRPar :: rest) f); [reflexivity|lia|reflexivity|lia].
Qed.

Lemma fail_on_rbrace : forall f rest, 10 <= f -> run f (RLevel 0) (TSym SRBrace :: rest) = PFail.
Proof. intros f rest H. do 10 (destruct f as [|f]; [lia|]). reflexivity. Qed.

Lemma follow_comma_join : forall L tss rest, follow_ok L (comma_join tss ++ TSym SRBrace :: rest) = true.
Proof. intros L tss rest. destruct tss as [|ts r]; reflexivity. Qed.

Lemma list_loop : forall r acc f rest,
  Forall parse_inv r -> list_sum (map (fun x => 12 + cost x) r) + 1 <= f ->
  run f (RList acc) (comma_join (map render r) ++ TSym SRBrace :: rest) = POk (AList (rev acc ++ r) (TSym SRBrace :: rest)).
Proof.
  induction r as [|x r IH]; intros acc f rest HF Hb.
  - destruct f as [|f]; [cbn in Hb; lia|]. cbn. rewrite app_nil_r. reflexivity.
  - inversion HF as [|? ? [_ [Tx _]] HF']; subst. cbn [map] in Hb. rewrite list_sum_cons in Hb.
    destruct f as [|f]; [lia|]. cbn [map comma_join flat_map]. fold (comma_join (map render r)).
    rewrite <- app_assoc. cbn [app run].
    rewrite (Tx 0 (comma_join (map render r) ++ TSym SRBrace :: rest) f); [|lia|apply follow_comma_join|lia].
    cbn [else_expr]. rewrite (IH (x :: acc) f rest HF'); [|lia]. cbn [rev]. rewrite <- app_assoc. reflexivity.
Qed.

Lemma inv_set : forall es, Forall parse_inv es -> parse_inv (ESet es).
Proof.
  intros es HF. apply inv_plain; [reflexivity|intros j rest _; reflexivity|].
  intros rest f _ Hc. cbn [cost] in Hc. destruct f as [|f]; [lia|]. cbn [render level].
  destruct es as [|a r].
  - cbn [map join_comma app run]. rewrite fail_on_rbrace by lia. reflexivity.
  - inversion HF as [|? ? [_ [Ta _]] HF']; subst. cbn [map]. rewrite join_comma_cons.
    cbn [map] in Hc. rewrite list_sum_cons in Hc.
    cbn [app]. rewrite <- !app_assoc. cbn [app run].
    rewrite (Ta 0 (comma_join (map render r) ++ TSym SRBrace :: rest) f); [|lia|apply follow_comma_join|lia].
    rewrite (list_loop r [a] f rest HF'); [|lia]. reflexivity.
Qed.

Lemma inv_un : forall u a, un_operand u <= level a -> parse_inv a -> parse_inv (EUn u a).
Proof.
  intros u a La [_ [Ta _]]. apply inv_plain.
  - destruct u; reflexivity.
  - intros j rest Hj. rewrite level_un in Hj. rewrite render_un. cbn [app]. rewrite prefix_of_un_tok.
    destruct (Nat.eqb_spec (un_level u) j); [lia|reflexivity].
  - intros rest f Hf Hc. rewrite level_un in *. cbn [cost] in Hc. destruct f as [|f]; [lia|].
    rewrite render_un. cbn [app]. rewrite run_prefix_level by (destruct u; reflexivity).
    rewrite prefix_of_un_tok, Nat.eqb_refl. cbn [tl].
    rewrite (Ta (un_operand u) rest f); [reflexivity|exact La| |lia].
    eapply follow_mono; [exact Hf|destruct u; cbn; lia].
Qed.

Lemma inv_pow : forall a b, 8 <= level a -> 6 <= level b -> parse_inv a -> parse_inv b -> parse_inv (EBin BPow a b).
Proof.
  intros a b La Lb [Ha [Ta _]] [_ [Tb _]]. apply inv_plain; [reflexivity|apply (head_left (EBin BPow a b) a _ eq_refl); [cbn; lia|exact Ha]|].
  intros rest f Hf Hc. cbn [cost] in Hc. destruct f as [|f]; [lia|]. cbn [render level oplevel].
  rewrite <- app_assoc. cbn [app]. rewrite run_level_7.
  rewrite (Ta 8 (TSym (SBin BPow) :: render b ++ rest) f); [|lia|reflexivity|lia]. cbn [then_expr].
  rewrite (Tb 6 rest f); [reflexivity|lia|apply follow_7_6; exact Hf|lia].
Qed.

(* the loops: one more iteration after the left operand has been folded *)
Lemma loop_chain : forall l a, is_chain_level l = true -> loop l a = RChain l a.
Proof. intros l a H. destruct l as [|[|[|[|[|[|l]]]]]]; try discriminate H; reflexivity. Qed.

Lemma inv_chain : forall o a b, o <> BPow -> oplevel o <= level a -> S (oplevel o) <= level b ->
  parse_inv a -> parse_inv b -> parse_inv (EBin o a b).
Proof.
  intros o a b Ho La Lb [Ha [_ La']] [_ [Tb _]]. pose proof (chain_op o Ho) as Hch.
  apply inv_loop; [cbn [level]; unfold is_loop_level; rewrite Hch; reflexivity|apply (head_left (EBin o a b) a _ eq_refl); assumption|].
  intros rest f Hf Hc. cbn [level] in *. set (l := oplevel o) in *.
  cbn [steps cost render level] in *. fold l in Hc |- *. rewrite Nat.eqb_refl in Hc |- *.
  rewrite <- app_assoc. cbn [app].
  replace (S (steps l a) + f) with (steps l a + S f) in * by lia.
  pose proof (steps_lt_cost l a) as SA.
  rewrite (La' l (TSym (SBin o) :: render b ++ rest) (S f)).
  - rewrite !loop_chain by exact Hch. cbn [run]. fold l. rewrite Nat.eqb_refl, Hch. cbn [andb].
    rewrite (Tb (S l) rest f); [reflexivity|exact Lb|exact Hf|lia].
  - unfold is_loop_level. rewrite Hch. reflexivity.
  - exact La.
  - unfold follow_ok. fold l. apply Nat.ltb_lt. lia.
  - destruct (Nat.ltb_spec l (level a)) as [E|E]; [rewrite (steps_other l a E) in Hc|]; lia.
Qed.

Lemma inv_attr : forall a n, 8 <= level a -> parse_inv a -> parse_inv (EAttr a n).
Proof.
  intros a n La [Ha [_ La']].
  apply inv_loop; [reflexivity|apply (head_left (EAttr a n) a _ eq_refl); [exact La|exact Ha]|].
  intros rest f _ Hc. cbn [level steps cost render Nat.eqb] in *. rewrite <- app_assoc. cbn [app].
  replace (S (steps 8 a) + f) with (steps 8 a + S f) in * by lia.
  rewrite (La' 8 (TSym SDot :: TId n :: rest) (S f)); [reflexivity|reflexivity|exact La|apply follow_9|].
  destruct (Nat.ltb_spec 8 (level a)) as [E|E]; [rewrite (steps_other 8 a E) in Hc|]; lia.
Qed.

Theorem roundtrip_inv : forall e, parse_inv (parenthesize e).
Proof.
  apply parenthesize_ind.
  - exact inv_lit.
  - exact inv_ident.
  - exact inv_set.
  - exact inv_par.
  - exact inv_un.
  - exact inv_pow.
  - exact inv_chain.
  - exact inv_attr.
Qed.

Lemma cost_elements : forall es, Forall (fun e => cost e <= 12 * length (render e)) es ->
  list_sum (map (fun x => 12 + cost x) es) <= 12 * length (comma_join (map render es)).
Proof.
  intros es H. induction H as [|x r Hx _ IH]; [reflexivity|].
  cbn [map comma_join flat_map]. fold (comma_join (map render r)). rewrite list_sum_cons, app_length. cbn [length]. lia.
Qed.

Lemma nodes_le_tokens : forall e, cost e <= 12 * length (render e).
Proof.
  induction e using expr_ind'; cbn [cost render length]; rewrite ?app_length; cbn [length]; try lia.
  - destruct H as [|x r Hx Hr]; [cbn; lia|]. apply cost_elements in Hr.
    cbn [map]. rewrite join_comma_cons, app_length, list_sum_cons. lia.
  - destruct o; cbn [render length]; lia.
Qed.

(* C04_precedence_roundtrip *)
Theorem parse_render : forall e, parse_expr (render_min e) = Some (parenthesize e).
Proof.
  intros e. unfold parse_expr, render_min, parse_fuel.
  destruct (roundtrip_inv e) as [_ [HT _]].
  pose proof (HT 0 [] (20 * (length (render (parenthesize e)) + 2))) as R.
  rewrite app_nil_r in R. rewrite R; [reflexivity|lia|reflexivity|].
  pose proof (nodes_le_tokens (parenthesize e)). lia.
Qed.

(* C04_render_injective *)
Theorem render_injective : forall e1 e2, render_min e1 = render_min e2 -> strip e1 = strip e2.
Proof.
  intros e1 e2 H. pose proof (parse_render e1) as P1. rewrite H, parse_render in P1. inversion P1 as [E].
  rewrite <- (strip_parenthesize e1), <- (strip_parenthesize e2), E. reflexivity.
Qed.
