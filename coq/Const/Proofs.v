(* C12: Constant.__init__ (const_check) accepts exactly what ConstSpec lists and stores a rational unchanged; the
   value ranges the code computes are the textbook ones. *)
From Coq Require Import QArith Qcanon Qpower Qfield List Lia.
From PV Require Import Expr.Values Const.Model Const.Spec.
Import ListNotations.

Lemma Qred_inject_Z : forall z, Qred (inject_Z z) = inject_Z z.
Proof. intros z. apply Qred_identity, Z.gcd_1_r. Qed.

Lemma is_int_iff : forall q, is_int q = true <-> exists z, q == inject_Z z.
Proof.
  intros q. unfold is_int. split.
  - intros H. apply Z.eqb_eq in H. exists (Qnum (Qred q)).
    rewrite <- (Qred_correct q) at 1. destruct (Qred q) as [n d]. cbn [Qnum Qden] in *.
    unfold Qeq, inject_Z. cbn [Qnum Qden]. rewrite H. lia.
  - intros [z Hz]. apply Qred_complete in Hz. rewrite Hz, Qred_inject_Z. reflexivity.
Qed.

Lemma inject_Z_eq : forall a b, inject_Z a == inject_Z b -> a = b.
Proof. intros a b H. unfold Qeq, inject_Z in H. cbn in H. lia. Qed.

Lemma uint_max_eq : forall w, uint_max w = (2 ^ w - 1)%Z.
Proof. intros. unfold uint_max. rewrite Z.shiftl_1_l. reflexivity. Qed.

Lemma sint_half_eq : forall w, (1 <= w)%Z -> sint_half w = (2 ^ (w - 1) - 1)%Z.
Proof.
  intros w H. unfold sint_half. rewrite Z.shiftl_1_l.
  replace w with (Z.succ (w - 1)) at 1 by lia. rewrite Z.pow_succ_r by lia.
  symmetry. apply (Z.div_unique _ 2 _ 1); lia.
Qed.

Lemma int_ranges_u : forall w tr, value_range (TUInt w tr) = Some (inject_Z 0, inject_Z (2 ^ w - 1)).
Proof. intros. cbn [value_range]. rewrite uint_max_eq. reflexivity. Qed.

Lemma int_ranges_s : forall w tr, (1 <= w)%Z ->
  value_range (TSInt w tr) = Some (inject_Z (- 2 ^ (w - 1)), inject_Z (2 ^ (w - 1) - 1)).
Proof.
  intros. cbn [value_range]. rewrite sint_half_eq by assumption.
  replace (- (2 ^ (w - 1) - 1) - 1)%Z with (- 2 ^ (w - 1))%Z by lia. reflexivity.
Qed.

Lemma value_range_int : forall t lo hi, ctype_ok t = true -> int_bounds t = Some (lo, hi) ->
  value_range t = Some (inject_Z lo, inject_Z hi).
Proof.
  intros t lo hi Hok Hb. destruct t; cbn [int_bounds] in Hb; try discriminate; inversion Hb; subst; clear Hb.
  - apply int_ranges_u.
  - cbn [ctype_ok] in Hok. apply int_ranges_s. lia.
  - reflexivity.
  - reflexivity.
Qed.

Lemma int_bounds_some : forall t, is_integer_type t = true -> exists lo hi, int_bounds t = Some (lo, hi).
Proof. intros t H. destruct t; try discriminate; cbn [int_bounds]; eauto. Qed.

Lemma int_bounds_integer : forall t lo hi, int_bounds t = Some (lo, hi) -> is_integer_type t = true.
Proof. intros t lo hi H. destruct t; try discriminate; reflexivity. Qed.

(* float limits: 2^emax * (2 - 2^-p) is the integer (2^(p+1) - 1) * 2^(emax-p), for every precision p <= emax *)
Lemma float_mag_q_int : forall emax p, (0 <= p <= emax)%Z ->
  float_mag_q emax p = inject_Z ((2 ^ (p + 1) - 1) * 2 ^ (emax - p)).
Proof.
  intros emax p H. unfold float_mag_q.
  rewrite <- (Qred_inject_Z ((2 ^ (p + 1) - 1) * 2 ^ (emax - p))). apply Qred_complete.
  replace emax with (p + (emax - p))%Z at 1 by lia.
  rewrite !Z.pow_add_r, Z.pow_1_r, Qpower_opp by lia.
  setoid_replace (Qpower 2 p) with (inject_Z (2 ^ p)) by (symmetry; apply (Zpower_Qpower 2 p); lia).
  assert (~ inject_Z (2 ^ p) == 0) as Hp by (pose proof (Z.pow_pos_nonneg 2 p); unfold Qeq; cbn; lia).
  revert Hp. generalize (2 ^ p)%Z (2 ^ (emax - p))%Z. intros a b Ha.
  unfold Z.sub. rewrite !inject_Z_mult, inject_Z_plus, inject_Z_mult, inject_Z_opp. field. exact Ha.
Qed.

Lemma float_mag_params : forall w,
  float_mag w = match float_params w with Some (emax, p) => Some (float_mag_q emax p) | None => None end.
Proof.
  intros w. unfold float_mag, float_params.
  destruct (w =? 16)%Z; [|destruct (w =? 32)%Z; [|destruct (w =? 64)%Z]]; reflexivity.
Qed.

Lemma float_params_le : forall w emax p, float_params w = Some (emax, p) -> (0 <= p <= emax)%Z.
Proof.
  intros w emax p. unfold float_params.
  destruct (w =? 16)%Z; [|destruct (w =? 32)%Z; [|destruct (w =? 64)%Z; [|discriminate]]]; intros [= <- <-]; lia.
Qed.

Lemma float_mag_eq : forall w, float_mag w = match float_max w with Some m => Some (inject_Z m) | None => None end.
Proof.
  intros w. rewrite float_mag_params. unfold float_max.
  destruct (float_params w) as [[emax p]|] eqn:E; [|reflexivity].
  rewrite (float_mag_q_int emax p (float_params_le w emax p E)). reflexivity.
Qed.

Lemma float_mag_formula : forall emax p, float_mag_q emax p == inject_Z (2 ^ emax) * (2 - Qpower 2 (- p)).
Proof. intros. unfold float_mag_q. apply Qred_correct. Qed.

Lemma float_ranges : forall w m, float_mag w = Some m ->
  exists emax p, float_params w = Some (emax, p)
    /\ m == inject_Z (2 ^ emax) * (2 - Qpower 2 (- p))
    /\ m = inject_Z ((2 ^ (p + 1) - 1) * 2 ^ (emax - p)).
Proof.
  intros w m. rewrite float_mag_params.
  destruct (float_params w) as [[emax p]|] eqn:E; [|discriminate]. intros [= <-]. exists emax, p.
  split; [reflexivity|]. split; [apply float_mag_formula|apply float_mag_q_int, (float_params_le w), E].
Qed.

Lemma value_range_float : forall w tr m, float_max w = Some m ->
  value_range (TFloat w tr) = Some (- inject_Z m, inject_Z m).
Proof. intros w tr m H. cbn [value_range]. rewrite float_mag_eq, H. reflexivity. Qed.

Lemma float_max_ok : forall w tr, ctype_ok (TFloat w tr) = true -> exists m, float_max w = Some m.
Proof.
  intros w tr H. cbn [ctype_ok] in H. unfold float_max, float_params.
  destruct (w =? 16)%Z; [eauto|]. destruct (w =? 32)%Z; [eauto|]. destruct (w =? 64)%Z; [eauto|discriminate].
Qed.

Lemma range_check_ok : forall t q lo hi v, value_range t = Some (lo, hi) ->
  (range_check t q = COk v <-> v = VRat q /\ lo <= q <= hi).
Proof.
  intros t q lo hi v H. unfold range_check. rewrite H, <- !Qle_bool_iff.
  destruct (Qle_bool lo q), (Qle_bool q hi); cbn [andb];
    (split; [intros [= <-]; auto|intros [-> [A B]]; reflexivity || discriminate]).
Qed.

Lemma range_check_stores : forall t q v, range_check t q = COk v -> v = VRat q.
Proof.
  intros t q v. unfold range_check. destruct (value_range t) as [[lo hi]|]; [|discriminate].
  destruct (Qle_bool lo q && Qle_bool q hi); intros [= <-]. reflexivity.
Qed.

Lemma utf8_clen_pos : forall c, (1 <= utf8_clen c)%Z.
Proof.
  intros c. unfold utf8_clen. destruct ((0 <=? c)%Z && (c <? 128)%Z); [lia|].
  destruct (c <? 2048)%Z; [lia|]. destruct (c <? 65536)%Z; lia.
Qed.

Lemma utf8_len_nonneg : forall s, (0 <= utf8_len s)%Z.
Proof. induction s as [|c s IH]; cbn; [lia|]. pose proof (utf8_clen_pos c). unfold utf8_len in IH. lia. Qed.

Lemma utf8_clen_1 : forall c, utf8_clen c = 1%Z <-> (0 <= c < 128)%Z.
Proof.
  intros c. unfold utf8_clen. destruct ((0 <=? c)%Z && (c <? 128)%Z) eqn:E.
  - apply andb_true_iff in E. rewrite Z.leb_le, Z.ltb_lt in E. tauto.
  - apply andb_false_iff in E. rewrite Z.leb_gt, Z.ltb_ge in E.
    split; [destruct (c <? 2048)%Z; [discriminate|]; destruct (c <? 65536)%Z; discriminate|lia].
Qed.

Lemma utf8_len_1 : forall s, utf8_len s = 1%Z <-> exists c, s = [c] /\ (0 <= c < 128)%Z.
Proof.
  intros s. split.
  - destruct s as [|c r]; cbn; [lia|]. intros H.
    pose proof (utf8_clen_pos c). pose proof (utf8_len_nonneg r) as N. unfold utf8_len in N.
    destruct r as [|c2 r2].
    + exists c. split; [reflexivity|]. apply utf8_clen_1. cbn in H. lia.
    + cbn in H, N. pose proof (utf8_clen_pos c2). pose proof (utf8_len_nonneg r2) as N2. unfold utf8_len in N2. lia.
  - intros [c [-> Hc]]. cbn. apply utf8_clen_1 in Hc. lia.
Qed.

Lemma is_surrogate_spec : forall c, is_surrogate c = true <-> (55296 <= c <= 57343)%Z.
Proof. intros c. unfold is_surrogate. rewrite andb_true_iff, !Z.leb_le. reflexivity. Qed.

Lemma encodable_false : forall s, encodable s = false <-> lone_surrogate s.
Proof.
  intros s. unfold encodable, lone_surrogate. induction s as [|c r IH]; cbn [forallb In].
  - split; [discriminate|]. intros [c [[] _]].
  - destruct (is_surrogate c) eqn:E; cbn [negb andb].
    + apply is_surrogate_spec in E. split; [eauto|reflexivity].
    + rewrite IH. split; [intros (x & I & R); eauto|].
      intros (x & [->|I] & R); [|eauto]. apply is_surrogate_spec in R. congruence.
Qed.

Lemma ascii_encodable : forall c, (0 <= c < 128)%Z -> encodable [c] = true.
Proof.
  intros c H. unfold encodable. cbn. destruct (is_surrogate c) eqn:E; [|reflexivity].
  apply is_surrogate_spec in E. lia.
Qed.

Lemma is_uint8_bounds : forall t, is_uint8 t = true -> int_bounds t = Some (0, 255)%Z.
Proof.
  intros t H. destruct t; try discriminate; cbn in *; try reflexivity.
  apply Z.eqb_eq in H. subst. reflexivity.
Qed.

Lemma is_uint8_integer : forall t, is_uint8 t = true -> is_integer_type t = true.
Proof. intros t H. destruct t; try discriminate; reflexivity. Qed.

(* Constant.__init__ by the class of the initialiser *)
Lemma const_check_rat : forall t q, const_check t (VRat q) =
  match t with
  | TBool | TNonPrim => CRej
  | TFloat _ _ => range_check t q
  | _ => if is_int q then range_check t q else CRej
  end.
Proof. intros. destruct t; reflexivity. Qed.

Lemma const_check_str : forall t s, const_check t (VStr s) =
  match t with
  | TBool | TNonPrim | TFloat _ _ => CRej
  | _ => if negb (encodable s) then CRej else if negb (utf8_len s =? 1)%Z then CRej
         else if negb (is_uint8 t) then CRej else range_check t (inject_Z (hd 0%Z s))
  end.
Proof. intros. destruct t; reflexivity. Qed.

Lemma const_check_int : forall t q, is_integer_type t = true ->
  const_check t (VRat q) = if is_int q then range_check t q else CRej.
Proof. intros t q H. rewrite const_check_rat. destruct t; (discriminate H || reflexivity). Qed.

Lemma const_check_char : forall t s, is_integer_type t = true ->
  const_check t (VStr s) =
  if negb (encodable s) then CRej else if negb (utf8_len s =? 1)%Z then CRej
  else if negb (is_uint8 t) then CRej else range_check t (inject_Z (hd 0%Z s)).
Proof. intros t s H. rewrite const_check_str. destruct t; (discriminate H || reflexivity). Qed.

Lemma const_check_sound : forall t v v', ctype_ok t = true -> const_check t v = COk v' -> ConstSpec t v v'.
Proof.
  intros t v v' Hok H.
  destruct v as [q|b|s|els]; [| | |destruct t; discriminate].
  - (* rational *)
    destruct (is_integer_type t) eqn:It.
    + rewrite (const_check_int t q It) in H. destruct (is_int q) eqn:Iq; [|discriminate].
      apply is_int_iff in Iq. destruct Iq as [z Hz].
      destruct (int_bounds_some t It) as (lo & hi & Hb).
      apply (range_check_ok t q _ _ v' (value_range_int t lo hi Hok Hb)) in H. destruct H as [-> AB].
      apply (CS_int t q z lo hi Hb Hz). rewrite Hz, <- !Zle_Qle in AB. exact AB.
    + destruct t; try discriminate; cbn in H; try discriminate.
      destruct (float_max_ok w trunc Hok) as [m Hm].
      apply (range_check_ok _ q _ _ v' (value_range_float w trunc m Hm)) in H. destruct H as [-> AB].
      apply (CS_float w trunc q m Hm AB).
  - (* boolean *)
    destruct t; cbn in H; try discriminate. inversion H; subst. constructor.
  - (* string *)
    destruct (is_integer_type t) eqn:It; [|destruct t; discriminate].
    rewrite (const_check_char t s It) in H.
    destruct (encodable s); cbn [negb] in H; [|discriminate].
    destruct (utf8_len s =? 1)%Z eqn:L; cbn [negb] in H; [|discriminate].
    destruct (is_uint8 t) eqn:U; cbn [negb] in H; [|discriminate].
    apply Z.eqb_eq in L. apply utf8_len_1 in L. destruct L as [c [-> Hc]].
    apply range_check_stores in H. subst v'. apply CS_char; assumption.
Qed.

Lemma const_check_complete : forall t v v', ctype_ok t = true -> ConstSpec t v v' -> const_check t v = COk v'.
Proof.
  intros t v v' Hok H. destruct H as [b|t q z lo hi Hb Hz Hr|t c U Hc|w tr q m Hm Hr].
  - reflexivity.
  - rewrite (const_check_int t q (int_bounds_integer _ _ _ Hb)), (proj2 (is_int_iff q) (ex_intro _ z Hz)).
    apply (range_check_ok t q _ _ _ (value_range_int t lo hi Hok Hb)). split; [reflexivity|].
    rewrite Hz, <- !Zle_Qle. exact Hr.
  - rewrite (const_check_char t [c] (is_uint8_integer _ U)), (ascii_encodable c Hc), U,
      (proj2 (utf8_len_1 [c]) (ex_intro _ c (conj eq_refl Hc))). cbn [Z.eqb Pos.eqb negb hd].
    apply (range_check_ok t _ _ _ _ (value_range_int t _ _ Hok (is_uint8_bounds t U))). split; [reflexivity|].
    rewrite <- !Zle_Qle. lia.
  - cbn. apply (range_check_ok _ q _ _ _ (value_range_float w tr m Hm)). split; [reflexivity|assumption].
Qed.

Theorem accept_iff : forall t v v', ctype_ok t = true -> (const_check t v = COk v' <-> ConstSpec t v v').
Proof. intros. split; [apply const_check_sound|apply const_check_complete]; assumption. Qed.

Lemma spec_compliant : forall t v v', ConstSpec t v v' -> Compliant t v'.
Proof.
  intros t v v' H. destruct H as [b|t q z lo hi Hb Hz Hr|t c U Hc|w tr q m Hm Hr].
  - cbn. eauto.
  - destruct t; try discriminate; cbn [Compliant]; exists q, z, lo, hi; auto.
  - pose proof (is_uint8_bounds t U) as Hb.
    destruct t; try discriminate; cbn [Compliant]; exists (inject_Z c), c, 0%Z, 255%Z;
      (split; [reflexivity|]); (split; [reflexivity|]); (split; [exact Hb|lia]).
  - cbn. exists q, m. auto.
Qed.

Theorem compliant : forall t v v', ctype_ok t = true -> const_check t v = COk v' -> Compliant t v'.
Proof. intros t v v' Hok H. eapply spec_compliant. apply const_check_sound; eassumption. Qed.

(* never rounded, never converted: a rational initialiser is stored as it is *)
Theorem exact : forall t q v', const_check t (VRat q) = COk v' -> v' = VRat q.
Proof.
  intros t q v' H. rewrite const_check_rat in H.
  destruct t; try discriminate; try (destruct (is_int q); [|discriminate]); exact (range_check_stores _ _ _ H).
Qed.

Theorem exact_bool : forall t b v', const_check t (VBool b) = COk v' -> v' = VBool b /\ t = TBool.
Proof. intros t b v' H. destruct t; cbn in H; try discriminate. inversion H. auto. Qed.

Theorem only_prims : forall t v v', const_check t v = COk v' ->
  t <> TNonPrim /\ (exists q, v' = VRat q) \/ (t = TBool /\ exists b, v' = VBool b).
Proof.
  intros t v v' H. destruct v as [q|b|s|els].
  - left. pose proof (exact _ _ _ H). split; [|eauto]. intros ->. discriminate.
  - right. apply exact_bool in H. destruct H; eauto.
  - left. split; [intros ->; discriminate|]. rewrite const_check_str in H.
    destruct t; try discriminate.
    all: destruct (negb (encodable s)); [discriminate|].
    all: destruct (negb (utf8_len s =? 1)%Z); [discriminate|].
    all: destruct (negb (is_uint8 _)); [discriminate|].
    all: apply range_check_stores in H; eauto.
  - destruct t; discriminate.
Qed.

(* a type that is not primitive carries no constant, whatever the initialiser (InvalidTypeError) *)
Theorem nonprim_rejected : forall v, const_check TNonPrim v = CRej.
Proof. intros v. destruct v; reflexivity. Qed.

(* a string containing a lone surrogate is never accepted (str.encode fails, handled as "not one character") *)
Theorem surrogate_rejected : forall t s, lone_surrogate s -> const_check t (VStr s) = CRej.
Proof.
  intros t s Hs. apply encodable_false in Hs. rewrite const_check_str, Hs. destruct t; reflexivity.
Qed.

(* the definition-text channel accepts exactly what the constructor accepts, for constructible types that may be
   attributes of a composite (byte and utf8 are array element types only) *)
Theorem text_channel : forall t v v', const_text t v = COk v' <->
  ctype_ok t = true /\ t <> TByte /\ t <> TUtf8 /\ const_check t v = COk v'.
Proof.
  intros t v v'. unfold const_text. destruct (ctype_ok t); cbn [negb]; [|intuition discriminate].
  destruct (const_check t v) as [w|]; [destruct t; intuition congruence|split; [discriminate|intros (_ & _ & _ & [=])]].
Qed.
