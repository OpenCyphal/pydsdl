(* C09 - the reader without cache: fuel, termination (the lookup list shrinks), cycles, independence of the result
   from the referrer (under case_unique). *)
From Coq Require Import ZArith List Bool Lia.
From PV Require Import Namespace.Reader Namespace.ReaderProofs.
Import ListNotations.
Open Scope Z_scope.

(* Every lookup list that arises below a read of L is L minus a set of keys.  Writing it `fk K L` lets two reads with
   different removed sets be compared (read_grow, read_minus_referrer). *)

Definition key := (str * Z * Z)%type.
Definition keyb (k1 k2 : key) : bool :=
  let '(n1, a1, b1) := k1 in let '(n2, a2, b2) := k2 in str_eqb n1 n2 && (a1 =? a2) && (b1 =? b2).

Lemma key_eqb_keyb : forall a b, key_eqb a b = keyb (mkey a) (mkey b).
Proof. reflexivity. Qed.

Lemma keyb_eq : forall k1 k2, keyb k1 k2 = true <-> k1 = k2.
Proof.
  intros [[n1 a1] b1] [[n2 a2] b2]. simpl. rewrite !andb_true_iff, str_eqb_eq, !Z.eqb_eq. split.
  - intros [[H1 H2] H3]. congruence.
  - intro H. inversion H. auto.
Qed.

Lemma keyb_refl : forall k, keyb k k = true.
Proof. intro. apply keyb_eq. reflexivity. Qed.

Lemma keyb_false : forall k1 k2, keyb k1 k2 = false <-> k1 <> k2.
Proof. intros. rewrite <- not_true_iff_false, keyb_eq. reflexivity. Qed.

Definition fk (K : key -> bool) (L : list meta) : list meta := filter (fun x => K (mkey x)) L.
Definition kall : key -> bool := fun _ => true.
Definition kminus (K : key -> bool) (d : meta) : key -> bool := fun k => K k && negb (keyb k (mkey d)).

Lemma kminus_iff : forall K d k, kminus K d k = true <-> K k = true /\ k <> mkey d.
Proof. intros. unfold kminus. rewrite andb_true_iff, negb_true_iff, keyb_false. reflexivity. Qed.

Lemma fk_all : forall L, fk kall L = L.
Proof. intro L. apply filter_all_true. reflexivity. Qed.

Lemma rm_fk : forall K d L, rm d (fk K L) = fk (kminus K d) L.
Proof. intros. unfold rm, fk, kminus. rewrite filter_filter. reflexivity. Qed.

Lemma fk_In : forall K L x, In x (fk K L) <-> In x L /\ K (mkey x) = true.
Proof. intros. unfold fk. apply filter_In. Qed.

Lemma fk_ext : forall K1 K2 L, (forall x, In x L -> K1 (mkey x) = K2 (mkey x)) -> fk K1 L = fk K2 L.
Proof. intros. unfold fk. apply filter_ext_in. exact H. Qed.

Lemma rm_length_lt : forall x L, In x L -> (length (rm x L) < length L)%nat.
Proof.
  intros. unfold rm. apply filter_length_lt with (x := x); [assumption|]. rewrite key_eqb_refl. reflexivity.
Qed.

Lemma rm_length_le : forall x L, (length (rm x L) <= length L)%nat.
Proof. intros. unfold rm. apply filter_length_le. Qed.

Section Pure.
Variable txt : Z -> list item.

Lemma eval_items_transfer : forall (rd rd' : meta -> res ctree) me L L' its r,
  (forall n a b arr x t, In (Ref n a b arr) its -> resolve me n a b L = RFound x -> rd x = Ok t ->
     resolve me n a b L' = RFound x /\ rd' x = Ok t) ->
  eval_items rd me L its = Ok r -> eval_items rd' me L' its = Ok r.
Proof.
  intros rd rd' me L L'. induction its as [|it its IH]; intros r H E; simpl in *; [assumption|].
  destruct it as [n a b arr| | |w].
  - destruct (resolve me n a b L) as [x| | |] eqn:R; try discriminate.
    destruct (rd x) as [t|e] eqn:Rd; [|discriminate].
    destruct (H n a b arr x t (or_introl eq_refl) R Rd) as [R' Hrd]. rewrite R', Hrd.
    destruct (eval_items rd me L its) as [[s ts]|e] eqn:Ev; [|discriminate].
    rewrite (IH (s, ts)); [assumption| |reflexivity].
    intros. apply (H n0 a0 b0 arr0); [right; assumption|assumption|assumption].
  - apply IH; [|assumption]. intros. apply (H n a b arr); [right; assumption|assumption|assumption].
  - discriminate.
  - destruct (eval_items rd me L its) as [[s ts]|e] eqn:Ev; [|discriminate].
    rewrite (IH (s, ts)); [assumption| |reflexivity].
    intros. apply (H n a b arr); [right; assumption|assumption|assumption].
Qed.

Lemma eval_items_ok_refs : forall (rd : meta -> res ctree) me L its s ts,
  eval_items rd me L its = Ok (s, ts) ->
  (forall k, In k ts -> exists n a b arr x, In (Ref n a b arr) its /\ resolve me n a b L = RFound x /\ rd x = Ok k) /\
  (forall n a b arr, In (Ref n a b arr) its -> exists x t, resolve me n a b L = RFound x /\ rd x = Ok t).
Proof.
  intros rd me L. induction its as [|it its IH]; intros s ts E; simpl in E.
  - injection E as <- <-. split; [intros k []|intros n a b arr []].
  - assert (W : forall s' ts', eval_items rd me L its = Ok (s', ts') ->
                (forall k, In k ts' -> exists n a b arr x, In (Ref n a b arr) (it :: its) /\ resolve me n a b L = RFound x /\ rd x = Ok k) /\
                (forall n a b arr, In (Ref n a b arr) its -> exists x t, resolve me n a b L = RFound x /\ rd x = Ok t)).
    { intros s' ts' E'. destruct (IH _ _ E') as [IH1 IH2]. split; [|exact IH2].
      intros k Hk. destruct (IH1 k Hk) as [n [a [b [arr [x [H1 H2]]]]]]. exists n, a, b, arr, x. split; [right; assumption|assumption]. }
    destruct it as [n a b arr| | |w].
    + destruct (resolve me n a b L) as [x| | |] eqn:R; try discriminate.
      destruct (rd x) as [t|e] eqn:Rd; [|discriminate].
      destruct (eval_items rd me L its) as [[s' ts']|e] eqn:Ev; [|discriminate].
      injection E as <- <-. destruct (W _ _ eq_refl) as [W1 W2]. split.
      * intros k [Hk|Hk]; [|exact (W1 k Hk)]. subst k. exists n, a, b, arr, x. split; [left; reflexivity|auto].
      * intros n' a' b' arr' [Hin|Hin]; [|exact (W2 _ _ _ _ Hin)]. inversion Hin; subst. eauto.
    + destruct (W _ _ E) as [W1 W2]. split; [exact W1|]. intros n a b arr [Hin|Hin]; [discriminate|exact (W2 _ _ _ _ Hin)].
    + discriminate.
    + destruct (eval_items rd me L its) as [[s' ts']|e] eqn:Ev; [|discriminate].
      injection E as <- <-. destruct (W _ _ eq_refl) as [W1 W2]. split; [exact W1|].
      intros n a b arr [Hin|Hin]; [discriminate|exact (W2 _ _ _ _ Hin)].
Qed.

Lemma eval_items_nofuel : forall (rd : meta -> res ctree) me L its,
  (forall x, In x L -> rd x <> Err EFuel) -> eval_items rd me L its <> Err EFuel.
Proof.
  intros rd me L. induction its as [|it its IH]; intros H; simpl; [discriminate|].
  destruct it as [n a b arr| | |w].
  - destruct (resolve me n a b L) as [x| | |] eqn:R; try discriminate.
    pose proof (H x (proj1 (resolve_found_cand _ _ _ _ _ _ R))) as Hx.
    destruct (rd x) as [t|e] eqn:Rd.
    + specialize (IH H). destruct (eval_items rd me L its) as [[s ts]|e]; [discriminate|]. congruence.
    + congruence.
  - apply IH; assumption.
  - discriminate.
  - specialize (IH H). destruct (eval_items rd me L its) as [[s ts]|e]; [discriminate|]. congruence.
Qed.

Lemma eval_items_agree : forall (rd rd' : meta -> res ctree) me L its,
  (forall x, In x L -> rd x <> Err EFuel -> rd' x = rd x) ->
  eval_items rd me L its <> Err EFuel -> eval_items rd' me L its = eval_items rd me L its.
Proof.
  intros rd rd' me L. induction its as [|it its IH]; intros H NF; simpl in *; [reflexivity|].
  destruct it as [n a b arr| | |w].
  - destruct (resolve me n a b L) as [x| | |] eqn:R; try reflexivity.
    pose proof (proj1 (resolve_found_cand _ _ _ _ _ _ R)) as Hx.
    destruct (rd x) as [t|e] eqn:Rd.
    + rewrite (H x Hx) by congruence. rewrite Rd.
      rewrite IH; [reflexivity|assumption|].
      destruct (eval_items rd me L its) as [[s ts]|e]; [discriminate|]. congruence.
    + rewrite (H x Hx) by congruence. rewrite Rd. reflexivity.
  - apply IH; assumption.
  - reflexivity.
  - rewrite IH; [reflexivity|assumption|].
    destruct (eval_items rd me L its) as [[s ts]|e]; [discriminate|]. congruence.
Qed.

Lemma read_fuel_mono : forall f d L, read txt f d L <> Err EFuel -> forall f', (f <= f')%nat -> read txt f' d L = read txt f d L.
Proof.
  induction f as [|f IH]; intros d L NF f' Hle; simpl in *; [congruence|].
  destruct f' as [|f']; [lia|]. simpl.
  rewrite (eval_items_agree (fun x => read txt f x (rm d L)) (fun x => read txt f' x (rm d L))).
  - reflexivity.
  - intros x _ Hx. apply IH; [assumption|lia].
  - destruct (eval_items (fun x => read txt f x (rm d L)) d (rm d L) (txt (mfile d))) as [[s ks]|e]; [discriminate|]. congruence.
Qed.

(* C09_terminates: the lookup list shrinks with every level *)
Lemma read_terminates_gen : forall f d L, (length (rm d L) < f)%nat -> read txt f d L <> Err EFuel.
Proof.
  induction f as [|f IH]; intros d L Hlen; [lia|]. simpl.
  assert (NF : eval_items (fun x => read txt f x (rm d L)) d (rm d L) (txt (mfile d)) <> Err EFuel).
  { apply eval_items_nofuel. intros x Hx. apply IH. pose proof (rm_length_lt x (rm d L) Hx). lia. }
  destruct (eval_items (fun x => read txt f x (rm d L)) d (rm d L) (txt (mfile d))) as [[s ks]|e]; [discriminate|]. congruence.
Qed.

Lemma read_top_terminates : forall d L, read_top txt d L <> Err EFuel.
Proof. intros. unfold read_top. apply read_terminates_gen. pose proof (rm_length_le d L). lia. Qed.

Lemma read_fuel_irrel : forall f f' d L, (length (rm d L) < f)%nat -> (length (rm d L) < f')%nat ->
  read txt f d L = read txt f' d L.
Proof.
  intros f f' d L Hf Hf'. destruct (Nat.le_ge_cases f f').
  - symmetry. apply read_fuel_mono; [apply read_terminates_gen|]; assumption.
  - apply read_fuel_mono; [apply read_terminates_gen|]; assumption.
Qed.

Lemma read_ok_to_top : forall f d L t, read txt f d L = Ok t -> read_top txt d L = Ok t.
Proof.
  intros f d L t H. unfold read_top. destruct (Nat.le_ge_cases f (S (length L))) as [Hle|Hge].
  - rewrite (read_fuel_mono f d L); [assumption|congruence|assumption].
  - rewrite <- H. apply read_fuel_irrel; pose proof (rm_length_le d L); lia.
Qed.

Lemma read_top_ok_to_fuel : forall f d L t, read_top txt d L = Ok t -> (length (rm d L) < f)%nat -> read txt f d L = Ok t.
Proof.
  intros f d L t H Hlen. rewrite <- H. apply read_fuel_irrel; [assumption|]. pose proof (rm_length_le d L). lia.
Qed.

Lemma read_ok_inv : forall f d L t, read txt f d L = Ok t ->
  exists f' s ks, f = S f' /\ eval_items (fun x => read txt f' x (rm d L)) d (rm d L) (txt (mfile d)) = Ok (s, ks) /\ t = node_of d s ks.
Proof.
  intros f d L t H. destruct f as [|f']; simpl in H; [discriminate|].
  destruct (eval_items (fun x => read txt f' x (rm d L)) d (rm d L) (txt (mfile d))) as [[s ks]|e] eqn:E; [|discriminate].
  inversion H. exists f', s, ks. auto.
Qed.

Lemma read_ok_key : forall f d L t, read txt f d L = Ok t -> tkey t = mkey d /\ tfile t = mfile d.
Proof.
  intros. apply read_ok_inv in H. destruct H as [f' [s [ks [_ [_ E]]]]]. subst. split; reflexivity.
Qed.

Lemma read_top_key : forall d L t, read_top txt d L = Ok t -> tkey t = mkey d /\ tfile t = mfile d.
Proof. intros d L t H. exact (read_ok_key _ _ _ _ H). Qed.

(* case_unique: no two lookups equal up to letter case with the same version (they may be exact duplicates) *)

Definition case_unique (L : list meta) : Prop :=
  forall a b, In a L -> In b L -> lower (mname a) = lower (mname b) -> mmaj a = mmaj b -> mmin a = mmin b -> mname a = mname b.

Definition case_uniqueb (L : list meta) : bool :=
  forallb (fun a => forallb (fun b =>
    implb (str_eqb (lower (mname a)) (lower (mname b)) && (mmaj a =? mmaj b) && (mmin a =? mmin b)) (str_eqb (mname a) (mname b))) L) L.

Lemma case_uniqueb_ok : forall L, case_uniqueb L = true -> case_unique L.
Proof.
  intros L H a b Ha Hb Hl Hj Hn. unfold case_uniqueb in H. rewrite forallb_forall in H.
  specialize (H a Ha). rewrite forallb_forall in H. specialize (H b Hb).
  assert (E : str_eqb (lower (mname a)) (lower (mname b)) && (mmaj a =? mmaj b) && (mmin a =? mmin b) = true).
  { rewrite !andb_true_iff, str_eqb_eq, !Z.eqb_eq. auto. }
  rewrite E in H. simpl in H. apply str_eqb_eq. assumption.
Qed.

Lemma lower_eq_of_eq : forall a b : str, a = b -> lower a = lower b.
Proof. intros. subst. reflexivity. Qed.

Lemma cand_same_key : forall L me n a b K x e,
  case_unique L -> resolve me n a b (fk K L) = RFound x -> In e L -> cand (complete me n) a b e = true ->
  mkey e = mkey x.
Proof.
  intros L me n a b K x e CU R He Hc.
  apply resolve_found_props in R. destruct R as [Hx [Hn [Ha [Hb _]]]].
  apply fk_In in Hx. destruct Hx as [Hx _].
  apply cand_spec in Hc. destruct Hc as [Hl [Hea Heb]].
  unfold mkey. rewrite (CU e x He Hx); [congruence| |congruence|congruence].
  rewrite Hl, Hn. reflexivity.
Qed.

Lemma resolve_grow : forall L me n a b K1 K2 x,
  case_unique L -> (forall k, K1 k = true -> K2 k = true) ->
  resolve me n a b (fk K1 L) = RFound x -> resolve me n a b (fk K2 L) = RFound x.
Proof.
  intros L me n a b K1 K2 x CU Hsub R.
  rewrite <- R. apply resolve_ext. unfold fk. rewrite !filter_filter.
  apply filter_ext_in. intros e He.
  destruct (cand (complete me n) a b e) eqn:C; [|rewrite !andb_false_r; reflexivity].
  rewrite !andb_true_r.
  pose proof (cand_same_key L me n a b K1 x e CU R He C) as Hk.
  pose proof (proj1 (resolve_found_cand _ _ _ _ _ _ R)) as Hx. apply fk_In in Hx. destruct Hx as [_ Hx].
  rewrite Hk, Hx. apply Hsub. assumption.
Qed.

Lemma resolve_shrink : forall L me n a b K1 K2 x,
  (forall k, K1 k = true -> K2 k = true) -> K1 (mkey x) = true ->
  resolve me n a b (fk K2 L) = RFound x -> resolve me n a b (fk K1 L) = RFound x.
Proof.
  intros L me n a b K1 K2 x Hsub Hx R.
  apply resolve_found_iff in R. destruct R as [F N]. apply resolve_found_iff. split; [|assumption].
  assert (E : filter (cand (complete me n) a b) (fk K1 L) = filter (fun e => K1 (mkey e)) (filter (cand (complete me n) a b) (fk K2 L))).
  { unfold fk. rewrite !filter_filter. apply filter_ext_in. intros e He.
    cbv beta. destruct (K1 (mkey e)) eqn:E1.
    - rewrite (Hsub _ E1). destruct (cand (complete me n) a b e); reflexivity.
    - destruct (K2 (mkey e)), (cand (complete me n) a b e); reflexivity. }
  rewrite E, F. simpl. rewrite Hx. reflexivity.
Qed.

(* C09_standalone, core: a successful read stays the same when removed definitions are put back *)
Lemma read_grow : forall L, case_unique L -> forall f d K1 K2 t,
  (forall k, K1 k = true -> K2 k = true) ->
  read txt f d (fk K1 L) = Ok t -> read txt f d (fk K2 L) = Ok t.
Proof.
  intros L CU. induction f as [|f IH]; intros d K1 K2 t Hsub H; simpl in *; [discriminate|].
  rewrite !rm_fk in *.
  destruct (eval_items (fun x => read txt f x (fk (kminus K1 d) L)) d (fk (kminus K1 d) L) (txt (mfile d))) as [[s ks]|e] eqn:E; [|discriminate].
  assert (Hsub' : forall k, kminus K1 d k = true -> kminus K2 d k = true).
  { intros k Hk. apply kminus_iff in Hk. apply kminus_iff. destruct Hk; auto. }
  assert (T : eval_items (fun x => read txt f x (fk (kminus K2 d) L)) d (fk (kminus K2 d) L) (txt (mfile d)) = Ok (s, ks)).
  { apply (eval_items_transfer (fun x => read txt f x (fk (kminus K1 d) L)) _ d (fk (kminus K1 d) L)); [|assumption].
    intros n a b arr x t' _ R Ht'. split.
    - eapply resolve_grow; eassumption.
    - eapply IH; eassumption. }
  rewrite T. assumption.
Qed.

Inductive sdesc : ctree -> ctree -> Prop :=       (* sdesc t' t: t' is a strict descendant of t *)
| sd_kid : forall t k, In k (tkids t) -> sdesc k t
| sd_deep : forall t k t', In k (tkids t) -> sdesc t' k -> sdesc t' t.

Lemma read_kid : forall f d L t k, read txt f d L = Ok t -> In k (tkids t) ->
  exists f' n a b arr x, f = S f' /\ In (Ref n a b arr) (txt (mfile d)) /\ resolve d n a b (rm d L) = RFound x /\ read txt f' x (rm d L) = Ok k.
Proof.
  intros f d L t k H Hk. apply read_ok_inv in H. destruct H as [f' [s [ks [Ef [E Et]]]]]. subst. simpl in Hk.
  destruct (proj1 (eval_items_ok_refs _ _ _ _ _ _ E) k Hk) as [n [a [b [arr [x [H1 [H2 H3]]]]]]].
  exists f', n, a, b, arr, x. auto.
Qed.

Lemma read_desc : forall L t' t, sdesc t' t -> forall f d K, read txt f d (fk K L) = Ok t ->
  exists f' d' K', In d' L /\ K' (mkey d') = true /\ (forall k, K' k = true -> kminus K d k = true) /\ read txt f' d' (fk K' L) = Ok t'.
Proof.
  intros L t' t Hd. induction Hd as [t k Hk|t k t' Hk Hd IH]; intros f d K H.
  - destruct (read_kid _ _ _ _ _ H Hk) as [f' [n [a [b [arr [x [Ef [Hin [R Rd]]]]]]]]].
    rewrite rm_fk in R, Rd. pose proof (proj1 (resolve_found_cand _ _ _ _ _ _ R)) as Hx. apply fk_In in Hx.
    exists f', x, (kminus K d). split; [tauto|]. split; [tauto|]. split; [auto|assumption].
  - destruct (read_kid _ _ _ _ _ H Hk) as [f' [n [a [b [arr [x [Ef [Hin [R Rd]]]]]]]]].
    rewrite rm_fk in R, Rd.
    destruct (IH _ _ _ Rd) as [f'' [d' [K' [H1 [H2 [H3 H4]]]]]].
    exists f'', d', K'. split; [assumption|]. split; [assumption|]. split; [|assumption].
    intros k0 Hk0. apply H3, kminus_iff in Hk0. tauto.
Qed.

Lemma read_standalone : forall L, case_unique L -> forall d t, read_top txt d L = Ok t ->
  forall t', sdesc t' t -> exists d', In d' L /\ tkey t' = mkey d' /\ tfile t' = mfile d' /\ read_top txt d' L = Ok t'.
Proof.
  intros L CU d t H t' Hd. unfold read_top in H. rewrite <- (fk_all L) in H.
  destruct (read_desc L t' t Hd _ _ _ H) as [f' [d' [K' [H1 [H2 [H3 H4]]]]]].
  exists d'. split; [assumption|].
  destruct (read_ok_key _ _ _ _ H4) as [Hk Hf]. split; [assumption|]. split; [assumption|].
  apply (read_grow L CU f' d' K' kall t') in H4; [|reflexivity].
  rewrite fk_all in H4. eapply read_ok_to_top; eassumption.
Qed.

(* along every path of a returned tree the keys are pairwise different: no definition contains itself *)
Lemma read_desc_key : forall L t' t, sdesc t' t -> forall f d K, read txt f d (fk K L) = Ok t ->
  K (tkey t') = true /\ tkey t' <> mkey d.
Proof.
  intros L t' t Hd f d K H.
  destruct (read_desc L t' t Hd f d K H) as [f' [d' [K' [H1 [H2 [H3 H4]]]]]].
  destruct (read_ok_key _ _ _ _ H4) as [Hk _]. rewrite Hk.
  apply H3, kminus_iff in H2. exact H2.
Qed.

Lemma read_top_acyclic : forall L d t t', read_top txt d L = Ok t -> sdesc t' t -> tkey t' <> mkey d.
Proof.
  intros L d t t' H Hd. unfold read_top in H. rewrite <- (fk_all L) in H.
  exact (proj2 (read_desc_key L t' t Hd _ _ _ H)).
Qed.

(* d contains a field whose type is written exactly as c's full name (absolute, or relative to d's namespace) and version *)
Definition refers (d c : meta) : Prop :=
  exists n a b arr, In (Ref n a b arr) (txt (mfile d)) /\ mname c = complete d n /\ mmaj c = a /\ mmin c = b.

(* chains of exactly spelled references through lookups (Closure.reach is the wider, case-insensitive closure of a set of targets) *)
Inductive reaches (L : list meta) : meta -> meta -> Prop :=
| reaches_one : forall d e, refers d e -> reaches L d e
| reaches_step : forall d c e, In c L -> refers d c -> reaches L c e -> reaches L d e.

Lemma refers_found : forall L f d K t c, read txt f d (fk K L) = Ok t -> refers d c ->
  exists f' x tx, f = S f' /\ mkey x = mkey c /\ In x (fk (kminus K d) L) /\
     (forall e, In e (fk (kminus K d) L) -> cand (mname c) (mmaj c) (mmin c) e = true -> e = x) /\
     read txt f' x (fk (kminus K d) L) = Ok tx.
Proof.
  intros L f d K t c H [n [a [b [arr [Hin [Hn [Ha Hb]]]]]]].
  apply read_ok_inv in H. destruct H as [f' [s [ks [Ef [E Et]]]]]. rewrite rm_fk in E.
  destruct (proj2 (eval_items_ok_refs _ _ _ _ _ _ E) n a b arr Hin) as [x [tx [R Rd]]].
  pose proof (resolve_found_props _ _ _ _ _ _ R) as [Hx [Hxn [Hxa [Hxb Hu]]]].
  exists f', x, tx. split; [assumption|]. split; [unfold mkey; congruence|]. split; [assumption|]. split; [|assumption].
  intros e He Hc. apply cand_spec in Hc. destruct Hc as [Hl [Hea Heb]].
  apply Hu; [assumption|congruence|congruence|congruence].
Qed.

Lemma reaches_key : forall L d e, reaches L d e -> forall f K t, read txt f d (fk K L) = Ok t ->
  K (mkey e) = true /\ mkey e <> mkey d.
Proof.
  intros L d e Hr. induction Hr as [d e Hre|d c e Hc Hre Hr IH]; intros f K t H.
  - destruct (refers_found L f d K t e H Hre) as [f' [x [tx [_ [Hk [Hx _]]]]]].
    apply fk_In in Hx. destruct Hx as [_ Hx]. rewrite Hk in Hx. apply kminus_iff in Hx. exact Hx.
  - destruct (refers_found L f d K t c H Hre) as [f' [x [tx [Ef [Hk [Hx [Hu Rd]]]]]]].
    assert (Hcx : c = x).
    { apply Hu.
      - apply fk_In. split; [assumption|]. apply fk_In in Hx. destruct Hx as [_ Hx]. rewrite Hk in Hx. assumption.
      - apply cand_spec. auto. }
    subst x. destruct (IH _ _ _ Rd) as [H1 H2]. apply kminus_iff in H1. destruct H1; auto.
Qed.

(* C09_cycles: a definition that reaches its own key (self reference included) is never read successfully,
   whichever member of the cycle the reading starts from and whatever has been removed from the lookup list *)
Lemma read_cycle : forall L d e, reaches L d e -> mkey e = mkey d -> forall f K t, read txt f d (fk K L) <> Ok t.
Proof.
  intros L d e Hr Hk f K t H. destruct (reaches_key L d e Hr f K t H) as [_ H2]. contradiction.
Qed.

Lemma read_top_cycle : forall L d e, reaches L d e -> mkey e = mkey d -> exists err, read_top txt d L = Err err /\ err <> EFuel.
Proof.
  intros L d e Hr Hk. destruct (read_top txt d L) as [t|err] eqn:E.
  - exfalso. unfold read_top in E. rewrite <- (fk_all L) in E. exact (read_cycle L d e Hr Hk _ _ _ E).
  - exists err. split; [reflexivity|]. intro. subst. exact (read_top_terminates d L E).
Qed.

End Pure.
