(* C19 - the outcome of reading depends on the texts of the closure only, and on no lookup definition that is not a
   candidate for a reference of the closure - whatever its version, port-ID or text: the cross-definition checks
   only see direct (port-IDs) and transitive + direct (minor versions), never the other lookups. *)
From Coq Require Import ZArith List Bool Lia.
From PV Require Import Namespace.Reader Namespace.ReaderProofs Namespace.ReadPure Namespace.ReadCache Namespace.SortProofs
                       Namespace.Closure.
Import ListNotations.
Open Scope Z_scope.

Definition drop (ef : Z) (M : list meta) : list meta := filter (fun x => negb (mfile x =? ef)) M.

Lemma drop_In : forall ef M x, In x (drop ef M) <-> In x M /\ mfile x <> ef.
Proof.
  intros. unfold drop. rewrite filter_In, negb_true_iff, Z.eqb_neq. tauto.
Qed.

Lemma cmem_In : forall t s, cmem t s = true -> exists x, In x s /\ ceq t x = true.
Proof. intros t s H. unfold cmem in H. apply existsb_exists in H. exact H. Qed.

(* The lookups are restricted to the files that `keep` selects; the closure is taken in the restricted list. *)
Section Restrict.
Variables txt txt' : Z -> list item.
Variables L T : list meta.
Variable keep : Z -> bool.

Definition restrict (M : list meta) : list meta := filter (fun x => keep (mfile x)) M.

Hypothesis agree : forall d, reach txt (restrict L) T d -> txt (mfile d) = txt' (mfile d).
Hypothesis not_cand : forall d, reach txt (restrict L) T d -> forall n a b arr, In (Ref n a b arr) (txt (mfile d)) ->
  forall y, In y L -> keep (mfile y) = false -> cand (complete d n) a b y = false.
Hypothesis targets_kept : forall d, In d T -> keep (mfile d) = true.

Lemma cand_kept : forall d n a b arr y, reach txt (restrict L) T d -> In (Ref n a b arr) (txt (mfile d)) -> In y L ->
  cand (complete d n) a b y = true -> keep (mfile y) = true.
Proof.
  intros d n a b arr y Hr Hin Hy Hc. destruct (keep (mfile y)) eqn:E; [reflexivity|].
  rewrite (not_cand d Hr n a b arr Hin y Hy E) in Hc. discriminate.
Qed.

Lemma resolve_restrict : forall d n a b arr M, reach txt (restrict L) T d -> In (Ref n a b arr) (txt (mfile d)) -> incl M L ->
  resolve d n a b M = resolve d n a b (restrict M).
Proof.
  intros d n a b arr M Hr Hin Hi. apply resolve_ext. unfold restrict. rewrite filter_comm.
  symmetry. apply filter_all_true. intros y Hy. apply filter_In in Hy. destruct Hy as [Hy Hc].
  exact (cand_kept d n a b arr y Hr Hin (Hi y Hy) Hc).
Qed.

Lemma readS_restrict : forall f tk d M c, reach txt (restrict L) T d -> incl M L ->
  readS txt f tk d M c = readS txt' f tk d (restrict M) c.
Proof.
  induction f as [|f IH]; intros tk d M c Hr Hi; simpl; [reflexivity|].
  destruct (cache_get (tk, mfile d) c); [reflexivity|].
  assert (Hi' : incl (rm d M) L) by (intros y Hy; apply Hi, (rm_incl d M), Hy).
  assert (E : rm d (restrict M) = restrict (rm d M)) by apply filter_comm.
  rewrite E, <- (agree d Hr).
  rewrite (eval_itemsS_cong (fun x c' => readS txt f false x (rm d M) c') (fun x c' => readS txt' f false x (restrict (rm d M)) c')
             d (rm d M) (restrict (rm d M))); [reflexivity| |].
  - intros n a b arr Hin. eapply resolve_restrict; eassumption.
  - intros n a b arr x c0 Hin R. apply resolve_found_cand in R. destruct R as [Hx Hc].
    apply IH; [|assumption].
    eapply reach_ref; [exact Hr|exact Hin| |exact Hc].
    apply filter_In. split; [apply Hi'; assumption|]. exact (cand_kept d n a b arr x Hr Hin (Hi' x Hx) Hc).
Qed.

Lemma step0_restrict : forall st d, In d T -> step0 txt L st d = step0 txt' (restrict L) st d.
Proof.
  intros st d Hd. unfold step0.
  destruct (pool_setdefault (mfile d) (true, mfile d) (rpool st)) as [o p1].
  destruct (match cache_get o (rcache st) with
            | Some t => if cmem t (rdirect st) || cmem t (rtrans st) then Some t else None
            | None => None end); [reflexivity|].
  rewrite (readS_restrict _ (fst o) d L (rcache st) (reach_t _ _ _ d Hd) (incl_refl L)).
  rewrite (readS_fuel_irrel txt' (S (length L)) (S (length (restrict L)))); [reflexivity| |].
  - pose proof (rm_length_le d (restrict L)). pose proof (filter_length_le (fun x => keep (mfile x)) L). unfold restrict in *. lia.
  - pose proof (rm_length_le d (restrict L)). lia.
Qed.

Lemma run_targets_restrict : forall ts st, incl ts T -> run_targets txt L st ts = run_targets txt' (restrict L) st ts.
Proof.
  induction ts as [|d ts IH]; intros st Hi; simpl; [reflexivity|].
  rewrite (step0_restrict st d (Hi d (or_introl eq_refl))).
  destruct (step0 txt' (restrict L) st d); [|reflexivity]. apply IH. intros x Hx. apply Hi. right. assumption.
Qed.

(* the port-IDs of the composites of the closure are looked up among kept definitions *)
Lemma find_restrict : forall g M, keep g = true ->
  find (fun d => mfile d =? g) (restrict M) = find (fun d => mfile d =? g) M.
Proof.
  intros g M Hg. induction M as [|y M IH]; simpl; [reflexivity|].
  destruct (mfile y =? g) eqn:E.
  - apply Z.eqb_eq in E. rewrite E, Hg. simpl. rewrite E, Z.eqb_refl. reflexivity.
  - destruct (keep (mfile y)); simpl; [rewrite E|]; exact IH.
Qed.

Lemma closure_kept : forall f, in_closure txt' (restrict L) T f -> keep f = true.
Proof.
  intros f [x [Hr E]]. subst f. destruct Hr as [d Hd|d n a b arr x _ _ Hx _]; [apply targets_kept; assumption|].
  apply filter_In in Hx. tauto.
Qed.

Lemma map_port_restrict : forall ts, (forall t, In t ts -> in_closure txt' (restrict L) T (tfile t)) ->
  map (fun t => (t, port_of L t)) ts = map (fun t => (t, port_of (restrict L) t)) ts.
Proof.
  intros ts H. apply map_ext_in. intros t Ht. unfold port_of. rewrite find_restrict; [reflexivity|].
  apply closure_kept, H, Ht.
Qed.

Theorem complete_read_restrict : complete_read txt T L = complete_read txt' T (restrict L).
Proof.
  unfold complete_read. rewrite (run_targets_restrict T st0 (incl_refl T)).
  destruct (run_targets txt' (restrict L) st0 T) as [st|e] eqn:R; [|reflexivity].
  destruct (run_targets_closure txt' (restrict L) T T st0 st (incl_refl T) (st0_in_closure _ _ _) R) as [_ [Hd [Ht _]]].
  rewrite (map_port_restrict (sort_trees (rdirect st))).
  2:{ intros t H. apply Hd. apply isort_In in H. exact H. }
  rewrite (map_port_restrict (sort_trees (rtrans st) ++ sort_trees (rdirect st))).
  2:{ intros t H. apply in_app_iff in H. destruct H as [H|H]; apply isort_In in H; auto. }
  reflexivity.
Qed.
End Restrict.

(* C19_noninterference: nothing is dropped *)
Theorem complete_read_agree : forall txt txt' L T,
  (forall d, reach txt L T d -> txt (mfile d) = txt' (mfile d)) ->
  complete_read txt T L = complete_read txt' T L.
Proof.
  intros txt txt' L T H. pose proof (complete_read_restrict txt txt' L T (fun _ => true)) as R.
  assert (E : restrict (fun _ => true) L = L) by (apply filter_all_true; reflexivity).
  rewrite E in R. apply R; [exact H|discriminate|reflexivity].
Qed.

(* C19_checks_scope: the definitions with file ef are dropped *)
Theorem complete_read_drop : forall txt L T ef,
  (forall d, reach txt (drop ef L) T d -> forall n a b arr, In (Ref n a b arr) (txt (mfile d)) ->
     forall y, In y L -> mfile y = ef -> cand (complete d n) a b y = false) ->
  (forall d, In d T -> mfile d <> ef) ->
  complete_read txt T L = complete_read txt T (drop ef L).
Proof.
  intros txt L T ef NC NT. apply (complete_read_restrict txt txt L T (fun f => negb (f =? ef))).
  - reflexivity.
  - intros d Hr n a b arr Hin y Hy E. apply negb_false_iff, Z.eqb_eq in E. exact (NC d Hr n a b arr Hin y Hy E).
  - intros d Hd. apply negb_true_iff, Z.eqb_neq, NT, Hd.
Qed.
