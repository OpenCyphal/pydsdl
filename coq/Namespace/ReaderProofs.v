(* C09 - basic facts: strings, keys, resolution. *)
From Coq Require Import ZArith List Bool Lia.
From PV Require Import Namespace.Reader.
Import ListNotations.
Open Scope Z_scope.

(* facts about lists that the library lacks *)

Lemma filter_filter : forall {A} (p q : A -> bool) l, filter p (filter q l) = filter (fun x => q x && p x) l.
Proof.
  induction l as [|x l IH]; simpl; [reflexivity|].
  destruct (q x); simpl; [destruct (p x); simpl; rewrite IH; reflexivity|exact IH].
Qed.

Lemma filter_all_true : forall {A} (p : A -> bool) l, (forall x, In x l -> p x = true) -> filter p l = l.
Proof.
  induction l as [|x l IH]; intros H; simpl; [reflexivity|].
  rewrite (H x (or_introl eq_refl)). f_equal. apply IH. intros. apply H. right. assumption.
Qed.

Lemma filter_comm : forall {A} (p q : A -> bool) l, filter p (filter q l) = filter q (filter p l).
Proof.
  intros. rewrite !filter_filter. apply filter_ext. intro. apply andb_comm.
Qed.

Lemma filter_length_le : forall {A} (p : A -> bool) l, (length (filter p l) <= length l)%nat.
Proof. induction l as [|x l IH]; simpl; [lia|]. destruct (p x); simpl; lia. Qed.

Lemma filter_length_lt : forall {A} (p : A -> bool) l x, In x l -> p x = false -> (length (filter p l) < length l)%nat.
Proof.
  induction l as [|y l IH]; simpl; intros x Hin Hp; [contradiction|].
  destruct Hin as [E|Hin].
  - subst. rewrite Hp. pose proof (filter_length_le p l). lia.
  - specialize (IH x Hin Hp). destruct (p y); simpl; lia.
Qed.

Lemma in_snoc : forall {A} (l : list A) t y, In y (l ++ [t]) <-> In y l \/ y = t.
Proof. intros. rewrite in_app_iff. simpl. intuition. Qed.

Lemma NoDup_app_iff : forall {A} (a b : list A), NoDup (a ++ b) <-> NoDup a /\ NoDup b /\ (forall x, In x a -> ~ In x b).
Proof.
  induction a as [|x a IH]; intros b; simpl.
  - split; [intro H; split; [constructor|split; [assumption|intros x []]]|tauto].
  - split.
    + intro H. inversion H as [|? ? Hn Hnd]; subst. apply IH in Hnd. destruct Hnd as [H1 [H2 H3]].
      split; [constructor; [intro; apply Hn; apply in_app_iff; auto|assumption]|].
      split; [assumption|]. intros y [Hy|Hy]; [subst; intro; apply Hn; apply in_app_iff; auto|apply H3; assumption].
    + intros [H1 [H2 H3]]. inversion H1 as [|? ? Hn Hnd]; subst. constructor.
      * intro Hx. apply in_app_iff in Hx. destruct Hx as [Hx|Hx]; [contradiction|]. apply (H3 x); auto.
      * apply IH. split; [assumption|]. split; [assumption|]. intros y Hy. apply H3. auto.
Qed.

Lemma NoDup_app_l : forall {A} (a b : list A), NoDup (a ++ b) -> NoDup a.
Proof. intros A a b H. apply NoDup_app_iff in H. tauto. Qed.
Lemma NoDup_app_r : forall {A} (a b : list A), NoDup (a ++ b) -> NoDup b.
Proof. intros A a b H. apply NoDup_app_iff in H. tauto. Qed.

Lemma NoDup_map_inj_on : forall {A B} (f : A -> B) l a b, NoDup (map f l) -> In a l -> In b l -> f a = f b -> a = b.
Proof.
  induction l as [|x l IH]; intros a b N Ha Hb E; [contradiction|].
  simpl in N. inversion N as [|? ? Hn N']; subst.
  destruct Ha as [Ha|Ha], Hb as [Hb|Hb].
  - congruence.
  - subst. exfalso. apply Hn. rewrite E. apply in_map. assumption.
  - subst. exfalso. apply Hn. rewrite <- E. apply in_map. assumption.
  - apply IH; assumption.
Qed.

Lemma NoDup_map_inj : forall {A B} (f : A -> B) l, (forall a b, In a l -> In b l -> f a = f b -> a = b) -> NoDup l -> NoDup (map f l).
Proof.
  induction l as [|x l IH]; intros H N; simpl; [constructor|]. inversion N as [|? ? Hn N']; subst. constructor.
  - intro Hin. apply in_map_iff in Hin. destruct Hin as [y [E Hy]].
    assert (y = x) by (apply H; [right; assumption|left; reflexivity|assumption]). subst. contradiction.
  - apply IH; [|assumption]. intros. apply H; try (right; assumption). assumption.
Qed.

Lemma NoDup_map_filter : forall {A B} (f : A -> B) (p : A -> bool) l, NoDup (map f l) -> NoDup (map f (filter p l)).
Proof.
  induction l as [|x l IH]; intros N; simpl; [constructor|]. simpl in N. inversion N as [|? ? Hn N']; subst.
  destruct (p x); simpl; [|apply IH; assumption]. constructor; [|apply IH; assumption].
  intro H. apply Hn. apply in_map_iff in H. destruct H as [y [E Hy]]. apply filter_In in Hy. rewrite <- E. apply in_map. tauto.
Qed.

Lemma str_eqb_eq : forall a b, str_eqb a b = true <-> a = b.
Proof.
  induction a as [|x a IH]; destruct b as [|y b]; simpl; split; intro H; try reflexivity; try discriminate.
  - apply andb_true_iff in H. destruct H as [H1 H2]. apply Z.eqb_eq in H1. apply IH in H2. subst. reflexivity.
  - inversion H; subst. apply andb_true_iff. split; [apply Z.eqb_refl|apply IH; reflexivity].
Qed.

Lemma str_eqb_refl : forall a, str_eqb a a = true.
Proof. intro a. apply str_eqb_eq. reflexivity. Qed.

Lemma str_eqb_neq : forall a b, str_eqb a b = false <-> a <> b.
Proof. intros a b. rewrite <- not_true_iff_false, str_eqb_eq. reflexivity. Qed.

Lemma str_eqb_sym : forall a b, str_eqb a b = str_eqb b a.
Proof. intros a b. apply eq_true_iff_eq. rewrite !str_eqb_eq. split; congruence. Qed.

Lemma key_eqb_eq : forall a b, key_eqb a b = true <-> mkey a = mkey b.
Proof.
  intros a b. unfold key_eqb, mkey. rewrite !andb_true_iff, str_eqb_eq, !Z.eqb_eq. split.
  - intros [[H1 H2] H3]. congruence.
  - intro H. inversion H. auto.
Qed.

Lemma key_eqb_refl : forall a, key_eqb a a = true.
Proof. intro a. apply key_eqb_eq. reflexivity. Qed.

Lemma key_eqb_sym : forall a b, key_eqb a b = key_eqb b a.
Proof. intros a b. apply eq_true_iff_eq. rewrite !key_eqb_eq. split; congruence. Qed.

Lemma key_eqb_false : forall a b, key_eqb a b = false <-> mkey a <> mkey b.
Proof. intros a b. rewrite <- not_true_iff_false, key_eqb_eq. reflexivity. Qed.

Lemma cand_spec : forall full a b d,
  cand full a b d = true <-> lower (mname d) = lower full /\ mmaj d = a /\ mmin d = b.
Proof.
  intros. unfold cand. rewrite !andb_true_iff, str_eqb_eq, !Z.eqb_eq. tauto.
Qed.

Lemma resolve_found_iff : forall me n a b L d,
  resolve me n a b L = RFound d <->
  filter (cand (complete me n) a b) L = [d] /\ mname d = complete me n.
Proof.
  intros. unfold resolve. destruct (filter (cand (complete me n) a b) L) as [|x [|y r]] eqn:F.
  - split; [discriminate|]. intros [H _]. discriminate.
  - destruct (str_eqb (mname x) (complete me n)) eqn:E.
    + apply str_eqb_eq in E. split.
      * intro H. inversion H; subst. auto.
      * intros [H _]. inversion H; subst. reflexivity.
    + apply str_eqb_neq in E. split; [discriminate|]. intros [H H2]. inversion H; subst. contradiction.
  - split.
    + destruct (negb (str_eqb (mname x) (mname y))); discriminate.
    + intros [H _]. discriminate.
Qed.

Lemma resolve_found_props : forall me n a b L d,
  resolve me n a b L = RFound d ->
  In d L /\ mname d = complete me n /\ mmaj d = a /\ mmin d = b /\
  forall e, In e L -> lower (mname e) = lower (complete me n) -> mmaj e = a -> mmin e = b -> e = d.
Proof.
  intros me n a b L d H. apply resolve_found_iff in H. destruct H as [F N].
  assert (Hd : In d (filter (cand (complete me n) a b) L)) by (rewrite F; left; reflexivity).
  apply filter_In in Hd. destruct Hd as [Hin Hc]. apply cand_spec in Hc. destruct Hc as [_ [Ha Hb]].
  repeat split; auto.
  intros e He Hl Hea Heb.
  assert (In e (filter (cand (complete me n) a b) L)).
  { apply filter_In. split; [assumption|]. apply cand_spec. auto. }
  rewrite F in H. destruct H as [H|[]]. auto.
Qed.

Lemma resolve_found_cand : forall me n a b L x, resolve me n a b L = RFound x -> In x L /\ cand (complete me n) a b x = true.
Proof.
  intros. apply resolve_found_props in H. destruct H as [H1 [H2 [H3 [H4 _]]]]. split; [assumption|].
  apply cand_spec. rewrite H2. auto.
Qed.

Lemma resolve_undefined_iff : forall me n a b L,
  resolve me n a b L = RUndefined <-> forall e, In e L -> cand (complete me n) a b e = false.
Proof.
  intros. unfold resolve. destruct (filter (cand (complete me n) a b) L) as [|x [|y r]] eqn:F.
  - split; [|reflexivity]. intros _ e He. destruct (cand (complete me n) a b e) eqn:C; [|reflexivity].
    assert (In e []) by (rewrite <- F; apply filter_In; auto). contradiction.
  - split.
    + destruct (str_eqb (mname x) (complete me n)); discriminate.
    + intro H. assert (Hx : In x (filter (cand (complete me n) a b) L)) by (rewrite F; left; reflexivity).
      apply filter_In in Hx. destruct Hx as [Hx Hc]. rewrite (H x Hx) in Hc. discriminate.
  - split.
    + destruct (negb (str_eqb (mname x) (mname y))); discriminate.
    + intro H. assert (Hx : In x (filter (cand (complete me n) a b) L)) by (rewrite F; left; reflexivity).
      apply filter_In in Hx. destruct Hx as [Hx Hc]. rewrite (H x Hx) in Hc. discriminate.
Qed.

Lemma resolve_many : forall me n a b L x y r,
  filter (cand (complete me n) a b) L = x :: y :: r ->
  resolve me n a b L = RCollision \/ resolve me n a b L = RCaseCollision.
Proof.
  intros. unfold resolve. rewrite H. destruct (negb (str_eqb (mname x) (mname y))); auto.
Qed.

Lemma resolve_single_wrong_case : forall me n a b L d,
  filter (cand (complete me n) a b) L = [d] -> mname d <> complete me n ->
  resolve me n a b L = RCaseCollision.
Proof.
  intros. unfold resolve. rewrite H. apply str_eqb_neq in H0. rewrite H0. reflexivity.
Qed.

Lemma resolve_ext : forall me n a b L1 L2,
  filter (cand (complete me n) a b) L1 = filter (cand (complete me n) a b) L2 ->
  resolve me n a b L1 = resolve me n a b L2.
Proof. intros. unfold resolve. rewrite H. reflexivity. Qed.
