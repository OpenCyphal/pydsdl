(* C10 - the sort of _dsdl.file_sort: key (full_name, -major, -minor); insertion sort facts. *)
From Coq Require Import ZArith List Bool Lia Sorted Permutation.
From PV Require Import Namespace.Reader Namespace.ReaderProofs.
Import ListNotations.
Open Scope Z_scope.

Lemma str_ltb_irrefl : forall a, str_ltb a a = false.
Proof. induction a as [|x a IH]; simpl; [reflexivity|]. rewrite Z.ltb_irrefl, Z.eqb_refl, IH. reflexivity. Qed.

Lemma str_ltb_trans : forall a b c, str_ltb a b = true -> str_ltb b c = true -> str_ltb a c = true.
Proof.
  induction a as [|x a IH]; intros b c H1 H2.
  - destruct b as [|y b]; simpl in H1; [discriminate|]. destruct c as [|z c]; simpl in H2; [discriminate|]. reflexivity.
  - destruct b as [|y b]; simpl in H1; [discriminate|]. destruct c as [|z c]; simpl in H2; [discriminate|]. simpl.
    apply orb_true_iff in H1. apply orb_true_iff in H2. apply orb_true_iff.
    destruct H1 as [H1|H1], H2 as [H2|H2].
    + left. apply Z.ltb_lt in H1, H2. apply Z.ltb_lt. lia.
    + apply andb_true_iff in H2. destruct H2 as [H2 _]. apply Z.eqb_eq in H2. subst. left. assumption.
    + apply andb_true_iff in H1. destruct H1 as [H1 _]. apply Z.eqb_eq in H1. subst. left. assumption.
    + apply andb_true_iff in H1. apply andb_true_iff in H2. destruct H1 as [E1 H1], H2 as [E2 H2].
      apply Z.eqb_eq in E1, E2. subst. right. rewrite Z.eqb_refl. simpl. eapply IH; eassumption.
Qed.

Lemma str_ltb_total : forall a b, str_ltb a b = false -> str_ltb b a = false -> a = b.
Proof.
  induction a as [|x a IH]; intros b H1 H2; destruct b as [|y b]; simpl in *; try reflexivity; try discriminate.
  apply orb_false_iff in H1. apply orb_false_iff in H2. destruct H1 as [L1 E1], H2 as [L2 E2].
  apply Z.ltb_ge in L1, L2. assert (x = y) by lia. subst. rewrite Z.eqb_refl in E1, E2. simpl in *.
  f_equal. apply IH; assumption.
Qed.

Lemma str_ltb_asym : forall a b, str_ltb a b = true -> str_ltb b a = false.
Proof.
  intros a b H. destruct (str_ltb b a) eqn:E; [|reflexivity].
  pose proof (str_ltb_trans a b a H E) as T. rewrite str_ltb_irrefl in T. discriminate.
Qed.

Definition rkey := (str * Z * Z)%type.
Definition rleb (k1 k2 : rkey) : bool :=
  let '(n1, a1, b1) := k1 in let '(n2, a2, b2) := k2 in rank_leb n1 a1 b1 n2 a2 b2.

Lemma rleb_spec : forall n1 a1 b1 n2 a2 b2,
  rleb (n1, a1, b1) (n2, a2, b2) = true <-> str_ltb n1 n2 = true \/ (n1 = n2 /\ (a2 < a1 \/ (a1 = a2 /\ b2 <= b1))).
Proof.
  intros. unfold rleb, rank_leb.
  rewrite orb_true_iff, andb_true_iff, orb_true_iff, andb_true_iff, str_eqb_eq, Z.ltb_lt, Z.eqb_eq, Z.leb_le. reflexivity.
Qed.

Lemma rleb_total : forall k1 k2, rleb k1 k2 = true \/ rleb k2 k1 = true.
Proof.
  intros [[n1 a1] b1] [[n2 a2] b2].
  destruct (str_ltb n1 n2) eqn:L1; [left; apply rleb_spec; auto|].
  destruct (str_ltb n2 n1) eqn:L2; [right; apply rleb_spec; auto|].
  pose proof (str_ltb_total _ _ L1 L2). subst.
  destruct (Z.lt_trichotomy a1 a2) as [A|[A|A]]; [right|subst|left]; try (apply rleb_spec; auto).
  destruct (Z.le_ge_cases b1 b2); [right|left]; apply rleb_spec; auto.
Qed.

Lemma rleb_antisym : forall k1 k2, rleb k1 k2 = true -> rleb k2 k1 = true -> k1 = k2.
Proof.
  intros [[n1 a1] b1] [[n2 a2] b2] H1 H2. apply rleb_spec in H1, H2. destruct H1 as [H1|[E1 H1]], H2 as [H2|[E2 H2]].
  - rewrite (str_ltb_asym _ _ H1) in H2. discriminate.
  - subst. rewrite str_ltb_irrefl in H1. discriminate.
  - subst. rewrite str_ltb_irrefl in H2. discriminate.
  - subst. assert (a1 = a2 /\ b1 = b2) as [Ea Eb] by lia. subst. reflexivity.
Qed.

Lemma rleb_trans : forall k1 k2 k3, rleb k1 k2 = true -> rleb k2 k3 = true -> rleb k1 k3 = true.
Proof.
  intros [[n1 a1] b1] [[n2 a2] b2] [[n3 a3] b3] H1 H2. apply rleb_spec in H1, H2. apply rleb_spec.
  destruct H1 as [H1|[E1 H1]], H2 as [H2|[E2 H2]].
  - left. eapply str_ltb_trans; eassumption.
  - subst. auto.
  - subst. auto.
  - subst. right. split; [reflexivity|lia].
Qed.

(* the order of C10 (_dsdl.file_sort) in words: lexicographically by name, then newest major first, then newest minor first *)
Definition rank_lt (k1 k2 : rkey) : Prop :=
  let '(n1, a1, b1) := k1 in let '(n2, a2, b2) := k2 in
  str_ltb n1 n2 = true \/ (n1 = n2 /\ (a2 < a1 \/ (a1 = a2 /\ b2 < b1))).

Lemma rleb_neq_lt : forall k1 k2, rleb k1 k2 = true -> k1 <> k2 -> rank_lt k1 k2.
Proof.
  intros [[n1 a1] b1] [[n2 a2] b2] H Hne. apply rleb_spec in H. unfold rank_lt. destruct H as [H|[E [H|[Ea H]]]]; subst; auto.
  right. split; [reflexivity|]. right. split; [reflexivity|]. assert (b1 <> b2) by congruence. lia.
Qed.

Section Sort.
Context {A : Type} (leb : A -> A -> bool).

Lemma insert_perm : forall x l, Permutation (insert leb x l) (x :: l).
Proof.
  induction l as [|y l IH]; simpl; [apply Permutation_refl|].
  destruct (leb x y); [apply Permutation_refl|].
  eapply Permutation_trans; [apply perm_skip; exact IH|apply perm_swap].
Qed.

Lemma isort_perm : forall l, Permutation (isort leb l) l.
Proof.
  induction l as [|x l IH]; simpl; [apply perm_nil|].
  eapply Permutation_trans; [apply insert_perm|apply perm_skip; exact IH].
Qed.

Lemma isort_In : forall l x, In x (isort leb l) <-> In x l.
Proof.
  intros l x. split; apply Permutation_in; [|apply Permutation_sym]; apply isort_perm.
Qed.
End Sort.

Section KeySort.
Context {A : Type} (kf : A -> rkey).
Definition kleb (a b : A) : bool := rleb (kf a) (kf b).

Definition kle (a b : A) : Prop := kleb a b = true.

Lemma insert_sorted : forall x l, StronglySorted kle l -> StronglySorted kle (insert kleb x l).
Proof.
  induction l as [|y l IH]; intros S; simpl.
  - constructor; [constructor|constructor].
  - inversion S as [|? ? S' F]; subst. destruct (kleb x y) eqn:E.
    + constructor; [assumption|]. constructor; [exact E|].
      eapply Forall_impl; [|exact F]. intros z Hz. unfold kle, kleb in *. eapply rleb_trans; eassumption.
    + constructor; [apply IH; assumption|].
      assert (Hyx : kle y x).
      { unfold kle, kleb in *. destruct (rleb_total (kf x) (kf y)) as [T|T]; [congruence|assumption]. }
      apply Forall_forall. intros z Hz.
      apply (Permutation_in _ (insert_perm kleb x l)) in Hz. destruct Hz as [Hz|Hz]; [subst; assumption|].
      rewrite Forall_forall in F. apply F. assumption.
Qed.

Lemma isort_sorted : forall l, StronglySorted kle (isort kleb l).
Proof. induction l as [|x l IH]; simpl; [constructor|apply insert_sorted; assumption]. Qed.

Lemma sorted_strict : forall l, StronglySorted kle l -> NoDup (map kf l) -> StronglySorted (fun a b => rank_lt (kf a) (kf b)) l.
Proof.
  induction l as [|x l IH]; intros S N; [constructor|].
  inversion S as [|? ? S' F]; subst. simpl in N. inversion N as [|? ? Hn N']; subst.
  constructor; [apply IH; assumption|].
  apply Forall_forall. intros z Hz. rewrite Forall_forall in F.
  apply rleb_neq_lt; [apply F; assumption|]. intro E. apply Hn. rewrite E. apply in_map. assumption.
Qed.

Lemma sorted_perm_unique : forall l1 l2, StronglySorted kle l1 -> StronglySorted kle l2 -> Permutation l1 l2 ->
  NoDup (map kf l1) -> l1 = l2.
Proof.
  induction l1 as [|x l1 IH]; intros l2 S1 S2 P N.
  - apply Permutation_nil in P. subst. reflexivity.
  - destruct l2 as [|y l2]; [apply Permutation_sym, Permutation_nil in P; discriminate|].
    inversion S1 as [|? ? S1' F1]; subst. inversion S2 as [|? ? S2' F2]; subst.
    simpl in N. inversion N as [|? ? Hn N']; subst.
    rewrite Forall_forall in F1, F2.
    assert (Hxy : x = y).
    { assert (Hy : In y (x :: l1)) by (apply (Permutation_in _ (Permutation_sym P)); left; reflexivity).
      assert (Hx : In x (y :: l2)) by (apply (Permutation_in _ P); left; reflexivity).
      destruct Hy as [Hy|Hy]; [assumption|]. destruct Hx as [Hx|Hx]; [auto|].
      pose proof (F1 y Hy) as L1. pose proof (F2 x Hx) as L2. unfold kle, kleb in *.
      pose proof (rleb_antisym _ _ L1 L2) as E. exfalso. apply Hn. rewrite E. apply in_map. assumption. }
    subst y. f_equal. apply IH; try assumption. eapply Permutation_cons_inv; eassumption.
Qed.

(* C10_perm, core: the result of the sort does not depend on the order of the input *)
Lemma isort_perm_eq : forall l1 l2, Permutation l1 l2 -> NoDup (map kf l1) -> isort kleb l1 = isort kleb l2.
Proof.
  intros l1 l2 P N. apply sorted_perm_unique.
  - apply isort_sorted.
  - apply isort_sorted.
  - eapply Permutation_trans; [apply isort_perm|]. eapply Permutation_trans; [exact P|]. apply Permutation_sym, isort_perm.
  - eapply Permutation_NoDup; [|exact N]. apply Permutation_map. apply Permutation_sym, isort_perm.
Qed.
End KeySort.

Lemma sort_metas_is : sort_metas = isort (kleb mkey).
Proof. reflexivity. Qed.
Lemma sort_trees_is : sort_trees = isort (kleb tkey).
Proof. reflexivity. Qed.

Lemma sort_metas_In : forall l x, In x (sort_metas l) <-> In x l.
Proof. intros. apply isort_In. Qed.
Lemma sort_trees_In : forall l x, In x (sort_trees l) <-> In x l.
Proof. intros. apply isort_In. Qed.
