(* C19 - the dependency closure of a set of targets; whatever the reader opens, caches, returns or hands to the print
   handler comes from a member of the closure. *)
From Coq Require Import ZArith List Bool.
From PV Require Import Namespace.Reader Namespace.ReaderProofs Namespace.ReadCache.
Import ListNotations.
Open Scope Z_scope.

(* the closure: the targets, and every lookup whose lower-cased name and version match a reference written in the
   text of a member (all case-insensitive candidates: an over-approximation of what is really read).
   ReadPure.reaches is the narrower relation between two definitions: chains of exactly spelled references. *)
Inductive reach (txt : Z -> list item) (L T : list meta) : meta -> Prop :=
| reach_t : forall d, In d T -> reach txt L T d
| reach_ref : forall d n a b arr x, reach txt L T d -> In (Ref n a b arr) (txt (mfile d)) -> In x L ->
    cand (complete d n) a b x = true -> reach txt L T x.

Lemma rm_incl : forall d M, incl (rm d M) M.
Proof. intros d M x H. unfold rm in H. apply filter_In in H. tauto. Qed.

Lemma cadd_In : forall t s x, In x (cadd t s) -> In x s \/ x = t.
Proof.
  intros t s x H. unfold cadd in H. destruct (cmem t s); [left; assumption|].
  apply in_app_iff in H. destruct H as [H|[H|[]]]; auto.
Qed.

Lemma cremove_In : forall t s x, In x (cremove t s) -> In x s.
Proof. intros t s x H. unfold cremove in H. apply filter_In in H. tauto. Qed.

Section Closure.
Variable txt : Z -> list item.
Variables L T : list meta.

Definition in_closure (f : Z) : Prop := exists x, reach txt L T x /\ mfile x = f.

Definition ev_in_closure (e : event) : Prop :=
  match e with
  | EvOpen f => in_closure f
  | EvPrint f _ => in_closure f
  | EvDep x => reach txt L T x
  end.

Definition cache_in_closure (c : cache) : Prop := forall o t, cache_get o c = Some t -> in_closure (tfile t).

Lemma eval_itemsS_closure : forall (rd : meta -> cache -> res (ctree * cache * list event)) me M,
  reach txt L T me -> incl M L ->
  (forall x c0 t c1 ev, In x M -> reach txt L T x -> cache_in_closure c0 -> rd x c0 = Ok (t, c1, ev) -> cache_in_closure c1 /\ Forall ev_in_closure ev) ->
  forall its line c s ks c' ev, incl its (txt (mfile me)) -> cache_in_closure c ->
  eval_itemsS rd me M line its c = Ok (s, ks, c', ev) -> cache_in_closure c' /\ Forall ev_in_closure ev.
Proof.
  intros rd me M Hme Hi Hrd. induction its as [|it its IH]; intros line c s ks c' ev Hsub Hc E.
  - simpl in E. injection E as <- <- <- <-. split; [assumption|constructor].
  - assert (Hsub' : incl its (txt (mfile me))) by (intros it0 H0; apply Hsub; right; assumption).
    destruct it as [n a b arr| | |w].
    + apply eval_itemsS_ref_ok in E. destruct E as (x & t & c1 & ev1 & s' & ts & ev2 & R & Rd & Ev & -> & -> & ->).
      apply resolve_found_cand in R. destruct R as [Hx Hcd].
      assert (Hrx : reach txt L T x).
      { eapply reach_ref; [exact Hme|apply Hsub; left; reflexivity|apply Hi; exact Hx|exact Hcd]. }
      destruct (Hrd x c t c1 ev1 Hx Hrx Hc Rd) as [Hc1 F1].
      destruct (IH _ _ _ _ _ _ Hsub' Hc1 Ev) as [Hc2 F2].
      split; [assumption|]. constructor; [exact Hrx|]. apply Forall_app. split; assumption.
    + apply eval_itemsS_print_ok in E. destruct E as (ev2 & Ev & ->).
      destruct (IH _ _ _ _ _ _ Hsub' Hc Ev) as [Hc2 F2].
      split; [assumption|]. constructor; [exists me; auto|assumption].
    + discriminate.
    + apply eval_itemsS_plain_ok in E. destruct E as (s' & Ev & ->). eapply IH; eassumption.
Qed.

Lemma readS_closure : forall f tk d M c t c' ev, reach txt L T d -> incl M L -> cache_in_closure c ->
  readS txt f tk d M c = Ok (t, c', ev) -> cache_in_closure c' /\ in_closure (tfile t) /\ Forall ev_in_closure ev.
Proof.
  induction f as [|f IH]; intros tk d M c t c' ev Hr Hi Hc H; simpl in H; [discriminate|].
  destruct (cache_get (tk, mfile d) c) as [t0|] eqn:G.
  - injection H as <- <- <-. split; [assumption|]. split; [eapply Hc; eassumption|constructor].
  - destruct (eval_itemsS (fun x c0 => readS txt f false x (rm d M) c0) d (rm d M) 1 (txt (mfile d)) c)
      as [[[[s ks] c1] ev1]|e] eqn:E; [|discriminate].
    injection H as <- <- <-.
    assert (Hi' : incl (rm d M) L) by (intros y Hy; apply Hi, (rm_incl d M), Hy).
    assert (Hrd : forall x c0 t0 c2 ev0, In x (rm d M) -> reach txt L T x -> cache_in_closure c0 ->
              readS txt f false x (rm d M) c0 = Ok (t0, c2, ev0) -> cache_in_closure c2 /\ Forall ev_in_closure ev0).
    { intros x c0 t0 c2 ev0 _ Hrx Hc0 Hrd. destruct (IH false x (rm d M) c0 t0 c2 ev0 Hrx Hi' Hc0 Hrd) as [H1 [_ H2]]. auto. }
    destruct (eval_itemsS_closure _ d (rm d M) Hr Hi' Hrd _ _ _ _ _ _ _ (incl_refl _) Hc E) as [Hc1 F].
    assert (Ht : in_closure (mfile d)) by (exists d; auto).
    split; [|split; [exact Ht|constructor; assumption]].
    intros o t0 Ho. simpl in Ho. destruct (okey_eqb o (tk, mfile d)); [inversion Ho; subst; exact Ht|eapply Hc1; eassumption].
Qed.

Definition state_in_closure (st : rstate) : Prop :=
  cache_in_closure (rcache st) /\
  (forall t, In t (rdirect st) -> in_closure (tfile t)) /\
  (forall t, In t (rtrans st) -> in_closure (tfile t)) /\
  (forall f, In f (ropened st) -> in_closure f) /\
  (forall h f l, In (h, f, l) (rdeliv st) -> in_closure f).

Lemma st0_in_closure : state_in_closure st0.
Proof. split; [intros o t H; discriminate|]. repeat split; intros; contradiction. Qed.

Lemma opened_in_closure : forall ev, Forall ev_in_closure ev -> forall f, In f (opened_of ev) -> in_closure f.
Proof.
  induction ev as [|e ev IH]; intros F f Hf; simpl in Hf; [contradiction|].
  inversion F as [|? ? He F']; subst. destruct e as [g|g l|x]; simpl in Hf.
  - destruct Hf as [Hf|Hf]; [subst; exact He|apply IH; assumption].
  - apply IH; assumption.
  - apply IH; assumption.
Qed.

Lemma prints_in_closure : forall h ev, Forall ev_in_closure ev -> forall h' f l, In (h', f, l) (prints_of h ev) -> in_closure f.
Proof.
  induction ev as [|e ev IH]; intros F h' f l Hf; simpl in Hf; [contradiction|].
  inversion F as [|? ? He F']; subst. destruct e as [g|g l0|x]; simpl in Hf.
  - eapply IH; eassumption.
  - destruct Hf as [Hf|Hf]; [inversion Hf; subst; exact He|eapply IH; eassumption].
  - eapply IH; eassumption.
Qed.

Lemma absorb_closure : forall st x st', state_in_closure st -> absorb st x = Ok st' -> state_in_closure st'.
Proof.
  intros st x st' [Hc [Hd [Ht Hlog]]] H. unfold absorb in H.
  destruct (pool_setdefault (mfile x) (false, mfile x) (rpool st)) as [o p1].
  destruct (cache_get o (rcache st)) as [t|] eqn:G; [|discriminate].
  destruct (cmem t (rdirect st) || cmem t (rtrans st)); inversion H; subst; (split; [exact Hc|split; [exact Hd|split; [|exact Hlog]]]); simpl.
  - exact Ht.
  - intros t0 H0. apply cadd_In in H0. destruct H0 as [H0|H0]; [apply Ht; assumption|subst; eapply Hc; eassumption].
Qed.

Lemma absorb_all_closure : forall xs st st', state_in_closure st -> absorb_all st xs = Ok st' -> state_in_closure st'.
Proof.
  induction xs as [|x xs IH]; intros st st' Hs H; simpl in H; [inversion H; subst; assumption|].
  destruct (absorb st x) as [st1|e] eqn:A; [|discriminate]. eapply IH; [eapply absorb_closure; eassumption|exact H].
Qed.

Lemma step0_closure : forall st d st', In d T -> state_in_closure st -> step0 txt L st d = Ok st' -> state_in_closure st'.
Proof.
  intros st d st' Hd [Hc [Hdi [Htr [Ho Hp]]]] H. unfold step0 in H.
  destruct (pool_setdefault (mfile d) (true, mfile d) (rpool st)) as [o p1].
  assert (Hadd : forall t, in_closure (tfile t) -> forall t0, In t0 (cadd t (rdirect st)) -> in_closure (tfile t0)).
  { intros t Ht t0 H0. apply cadd_In in H0. destruct H0 as [H0|H0]; [auto|subst; assumption]. }
  assert (Hrem : forall t t0, In t0 (cremove t (rtrans st)) -> in_closure (tfile t0)).
  { intros t t0 H0. apply cremove_In in H0. auto. }
  destruct (match cache_get o (rcache st) with
            | Some t => if cmem t (rdirect st) || cmem t (rtrans st) then Some t else None
            | None => None end) as [t|] eqn:SK.
  - assert (Ht : in_closure (tfile t)).
    { destruct (cache_get o (rcache st)) as [t0|] eqn:G; [|discriminate].
      destruct (cmem t0 (rdirect st) || cmem t0 (rtrans st)); [|discriminate]. inversion SK; subst. eapply Hc; eassumption. }
    destruct (cmem t (rtrans st)); injection H as <-.
    + exact (conj Hc (conj (Hadd t Ht) (conj (Hrem t) (conj Ho Hp)))).
    + exact (conj Hc (conj Hdi (conj Htr (conj Ho Hp)))).
  - destruct (readS txt (S (length L)) (fst o) d L (rcache st)) as [[[t c1] ev]|e] eqn:R; [|discriminate].
    destruct (readS_closure _ _ _ _ _ _ _ _ (reach_t _ _ _ d Hd) (incl_refl L) Hc R) as [Hc1 [Ht F]].
    eapply absorb_all_closure; [|exact H]. refine (conj Hc1 (conj (Hadd t Ht) (conj (Hrem t) (conj _ _)))); simpl.
    + intros f Hf. apply in_app_iff in Hf. destruct Hf as [Hf|Hf]; [apply Ho; assumption|eapply opened_in_closure; eassumption].
    + intros h f l Hf. apply in_app_iff in Hf. destruct Hf as [Hf|Hf]; [eapply Hp; eassumption|eapply prints_in_closure; eassumption].
Qed.

Lemma run_targets_closure : forall ts st st', incl ts T -> state_in_closure st -> run_targets txt L st ts = Ok st' -> state_in_closure st'.
Proof.
  induction ts as [|d ts IH]; intros st st' Hi Hs H; simpl in H; [inversion H; subst; assumption|].
  destruct (step0 txt L st d) as [st1|e] eqn:S; [|discriminate].
  eapply IH; [|eapply step0_closure; [apply Hi; left; reflexivity|exact Hs|exact S]|exact H].
  intros x Hx. apply Hi. right. assumption.
Qed.

Theorem complete_read_opened : forall out, complete_read txt T L = Ok out ->
  (forall f, In f (oopened out) -> exists x, reach txt L T x /\ mfile x = f) /\
  (forall h f l, In (h, f, l) (odeliv out) -> exists x, reach txt L T x /\ mfile x = f).
Proof.
  intros out H. unfold complete_read in H.
  destruct (run_targets txt L st0 T) as [st|e] eqn:R; [|discriminate].
  destruct (run_targets_closure T st0 st (incl_refl T) st0_in_closure R) as [_ [_ [_ [Ho Hp]]]].
  destruct (ports_ok _ && minors_ok _); [|discriminate]. inversion H; subst. simpl. split; assumption.
Qed.
End Closure.
