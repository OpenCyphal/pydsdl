(* C10 - facts about directory sets, the listing and the sort; C19 - a malformed file name under a listed directory is
   reported (listing_bad_name). *)
From Coq Require Import ZArith List Bool Lia Permutation.
From PV Require Import Namespace.Reader Namespace.ReaderProofs Namespace.Listing Namespace.SortProofs.
Import ListNotations.
Open Scope Z_scope.

Lemma is_prefix_spec : forall p q, is_prefix p q = true <-> exists r, q = p ++ r.
Proof.
  induction p as [|x p IH]; intros q; simpl.
  - split; [intros _; exists q; reflexivity|reflexivity].
  - destruct q as [|y q].
    + split; [discriminate|]. intros [r H]. discriminate.
    + rewrite andb_true_iff, str_eqb_eq, IH. split.
      * intros [E [r H]]. subst. exists r. reflexivity.
      * intros [r H]. inversion H; subst. split; [reflexivity|exists r; reflexivity].
Qed.

Lemma is_prefix_refl : forall p, is_prefix p p = true.
Proof. intro p. apply is_prefix_spec. exists []. symmetry. apply app_nil_r. Qed.

Lemma prefix_comparable : forall (a b l : list str), is_prefix a l = true -> is_prefix b l = true ->
  is_prefix a b = true \/ is_prefix b a = true.
Proof.
  induction a as [|x a IH]; intros b l Ha Hb; [left; reflexivity|].
  destruct b as [|y b]; [right; reflexivity|].
  destruct l as [|z l]; simpl in *; [discriminate|].
  apply andb_true_iff in Ha. apply andb_true_iff in Hb. destruct Ha as [E1 Ha], Hb as [E2 Hb].
  apply str_eqb_eq in E1, E2. subst. rewrite str_eqb_refl. simpl. eapply IH; eassumption.
Qed.

Lemma dpath_eqb_eq : forall p q, dpath_eqb p q = true <-> p = q.
Proof.
  intros p q. unfold dpath_eqb. rewrite andb_true_iff, !is_prefix_spec. split.
  - intros [[r1 H1] [r2 H2]]. subst q. rewrite <- app_assoc in H2.
    assert (H : length p = length (p ++ r1 ++ r2)) by (rewrite <- H2; reflexivity).
    rewrite !app_length in H. destruct r1; [symmetry; apply app_nil_r|simpl in H; lia].
  - intro; subst. split; exists []; symmetry; apply app_nil_r.
Qed.

Lemma dpath_eqb_refl : forall p, dpath_eqb p p = true.
Proof. intro. apply dpath_eqb_eq. reflexivity. Qed.

Lemma dpath_eqb_false : forall p q, dpath_eqb p q = false <-> p <> q.
Proof. intros. rewrite <- not_true_iff_false, dpath_eqb_eq. reflexivity. Qed.

Definition inside (a b : dpath) : Prop := exists r, a = b ++ r.

Lemma dirs_rejected_spec : forall allow dirs,
  dirs_rejected allow dirs = true <->
  exists a b, In a dirs /\ In b dirs /\ a <> b /\
              ((allow = false /\ lower (dname a) = lower (dname b)) \/ inside a b).
Proof.
  intros allow dirs. unfold dirs_rejected. rewrite existsb_exists. split.
  - intros [a [Ha H]]. apply existsb_exists in H. destruct H as [b [Hb H]].
    unfold dir_conflict in H. apply andb_true_iff in H. destruct H as [H1 H2].
    apply negb_true_iff, dpath_eqb_false in H1.
    exists a, b. repeat split; auto.
    apply orb_true_iff in H2. destruct H2 as [H2|H2].
    + left. apply andb_true_iff in H2. destruct H2 as [H2 H3]. apply negb_true_iff in H2.
      apply str_eqb_eq in H3. auto.
    + right. apply is_prefix_spec in H2. exact H2.
  - intros [a [b [Ha [Hb [Hne H]]]]]. exists a. split; [assumption|].
    apply existsb_exists. exists b. split; [assumption|].
    unfold dir_conflict. apply andb_true_iff. split.
    + apply negb_true_iff, dpath_eqb_false. assumption.
    + apply orb_true_iff. destruct H as [[H1 H2]|H].
      * left. subst allow. simpl. apply str_eqb_eq. assumption.
      * right. apply is_prefix_spec. exact H.
Qed.

Lemma dirs_rejected_ext : forall allow d1 d2,
  (forall x, In x d1 <-> In x d2) -> dirs_rejected allow d1 = dirs_rejected allow d2.
Proof.
  intros allow d1 d2 H.
  destruct (dirs_rejected allow d1) eqn:E1, (dirs_rejected allow d2) eqn:E2; try reflexivity.
  - apply dirs_rejected_spec in E1. destruct E1 as [a [b [Ha [Hb R]]]].
    assert (dirs_rejected allow d2 = true).
    { apply dirs_rejected_spec. exists a, b. rewrite <- !H. auto. }
    congruence.
  - apply dirs_rejected_spec in E2. destruct E2 as [a [b [Ha [Hb R]]]].
    assert (dirs_rejected allow d1 = true).
    { apply dirs_rejected_spec. exists a, b. rewrite !H. auto. }
    congruence.
Qed.

Lemma not_rejected_no_nesting : forall allow dirs, dirs_rejected allow dirs = false ->
  forall a b, In a dirs -> In b dirs -> a <> b -> is_prefix b a = false.
Proof.
  intros allow dirs H a b Ha Hb Hne. destruct (is_prefix b a) eqn:E; [|reflexivity].
  assert (dirs_rejected allow dirs = true); [|congruence].
  apply dirs_rejected_spec. exists a, b. repeat split; auto. right. apply is_prefix_spec. assumption.
Qed.

Lemma dedupe_dirs_In : forall l x, In x (dedupe_dirs l) <-> In x l.
Proof.
  induction l as [|y l IH]; intro x; simpl; [tauto|].
  rewrite filter_In, IH. split.
  - intros [H|[H _]]; auto.
  - intros [H|H]; [auto|].
    destruct (dpath_eqb x y) eqn:E.
    + apply dpath_eqb_eq in E. auto.
    + right. split; [assumption|]. reflexivity.
Qed.

Lemma pairs_of_In : forall roots files r f,
  In (r, f) (pairs_of roots files) <-> In r roots /\ In f files /\ globbed f = true /\ is_prefix r (fdir f) = true.
Proof.
  intros. unfold pairs_of. rewrite in_flat_map. split.
  - intros [r' [Hr H]]. apply in_map_iff in H. destruct H as [f' [E H]]. inversion E; subst.
    apply filter_In in H. destruct H as [H1 H2]. apply andb_true_iff in H2. tauto.
  - intros [Hr [Hf [Hg Hp]]]. exists r. split; [assumption|]. apply in_map_iff. exists f. split; [reflexivity|].
    apply filter_In. split; [assumption|]. rewrite Hg, Hp. reflexivity.
Qed.

(* C19_names_matter: a malformed definition file name anywhere under a listed directory is reported *)
Lemma listing_bad_name : forall roots files r f,
  In r roots -> In f files -> globbed f = true -> is_prefix r (fdir f) = true -> fbad f = true ->
  listing roots files = Err EFileName.
Proof.
  intros. unfold listing.
  assert (E : existsb (fun rf => fbad (snd rf)) (pairs_of roots files) = true).
  { apply existsb_exists. exists (r, f). split; [|assumption]. apply pairs_of_In. auto. }
  rewrite E. reflexivity.
Qed.

Lemma existsb_perm : forall {A} (p : A -> bool) l1 l2, Permutation l1 l2 -> existsb p l1 = existsb p l2.
Proof.
  intros A p l1 l2 P. induction P; simpl.
  - reflexivity.
  - rewrite IHP. reflexivity.
  - destruct (p x), (p y); reflexivity.
  - congruence.
Qed.

Lemma filter_perm : forall {A} (p : A -> bool) l1 l2, Permutation l1 l2 -> Permutation (filter p l1) (filter p l2).
Proof.
  intros A p l1 l2 P. induction P; simpl.
  - apply perm_nil.
  - destruct (p x); [apply perm_skip|]; assumption.
  - destruct (p x), (p y); try apply Permutation_refl. apply perm_swap.
  - eapply Permutation_trans; eassumption.
Qed.

Lemma flat_map_perm_pointwise : forall {A B} (f g : A -> list B) l,
  (forall x, In x l -> Permutation (f x) (g x)) -> Permutation (flat_map f l) (flat_map g l).
Proof.
  induction l as [|x l IH]; intros H; simpl; [apply perm_nil|].
  apply Permutation_app; [apply H; left; reflexivity|apply IH; intros; apply H; right; assumption].
Qed.

Lemma pairs_of_perm_files : forall roots f1 f2, Permutation f1 f2 -> Permutation (pairs_of roots f1) (pairs_of roots f2).
Proof.
  intros. unfold pairs_of. apply flat_map_perm_pointwise. intros r _. apply Permutation_map. apply filter_perm. assumption.
Qed.

Lemma pairs_of_perm_roots : forall r1 r2 files, Permutation r1 r2 -> Permutation (pairs_of r1 files) (pairs_of r2 files).
Proof. intros. unfold pairs_of. apply Permutation_flat_map. assumption. Qed.

Definition pair_meta (rf : dpath * fent) : meta := mk_meta (fst rf) (snd rf).

(* no two definition files found under the listed directories encode the same full name and version *)
Definition ukeys (roots : list dpath) (files : list fent) : Prop :=
  NoDup (map (fun rf => mkey (pair_meta rf)) (pairs_of roots files)).

(* the keys found under one of several listed directories are among the keys found under all of them *)
Lemma ukeys_one : forall dirs files r, In r dirs -> ukeys dirs files -> ukeys [r] files.
Proof.
  intros dirs files r Hr U. unfold ukeys, pairs_of in *. simpl. rewrite app_nil_r.
  induction dirs as [|x dirs IH]; [contradiction|]. simpl in U. rewrite map_app in U.
  destruct Hr as [E|Hr]; [subst; exact (NoDup_app_l _ _ U)|exact (IH Hr (NoDup_app_r _ _ U))].
Qed.

Lemma listing_perm : forall r1 f1 r2 f2,
  Permutation (pairs_of r1 f1) (pairs_of r2 f2) -> ukeys r1 f1 -> listing r1 f1 = listing r2 f2.
Proof.
  intros r1 f1 r2 f2 P U. unfold listing.
  rewrite (existsb_perm _ _ _ P).
  destruct (existsb (fun rf => fbad (snd rf)) (pairs_of r2 f2)); [reflexivity|].
  f_equal. rewrite sort_metas_is. apply isort_perm_eq.
  - apply Permutation_map. exact P.
  - unfold ukeys in U. rewrite map_map. exact U.
Qed.

Lemma find_perm_unique : forall (l1 l2 : list fent) i, Permutation l1 l2 -> NoDup (map fid l1) ->
  find (fun f => fid f =? i) l1 = find (fun f => fid f =? i) l2.
Proof.
  intros l1 l2 i P. induction P; intros N; simpl.
  - reflexivity.
  - simpl in N. inversion N; subst. rewrite IHP by assumption. reflexivity.
  - simpl in N. inversion N as [|? ? H1 N1]; subst. inversion N1 as [|? ? H2 N2]; subst.
    destruct (fid y =? i) eqn:E1, (fid x =? i) eqn:E2; try reflexivity.
    apply Z.eqb_eq in E1, E2. exfalso. apply H1. left. congruence.
  - rewrite IHP1 by assumption. apply IHP2. eapply Permutation_NoDup; [|exact N]. apply Permutation_map. assumption.
Qed.

Lemma targets_of_perm : forall f1 f2 roots ids, Permutation f1 f2 -> NoDup (map fid f1) ->
  targets_of f1 roots ids = targets_of f2 roots ids.
Proof.
  intros f1 f2 roots ids P N. induction ids as [|i ids IH]; simpl; [reflexivity|].
  rewrite (find_perm_unique f1 f2 i P N). rewrite IH. reflexivity.
Qed.

Lemma dedupe_dirs_NoDup : forall l, NoDup (dedupe_dirs l).
Proof.
  induction l as [|x l IH]; simpl; [constructor|]. constructor.
  - intro H. apply filter_In in H. destruct H as [_ H]. rewrite dpath_eqb_refl in H. discriminate.
  - apply NoDup_filter. assumption.
Qed.

Lemma dedupe_dirs_perm : forall l1 l2, (forall x, In x l1 <-> In x l2) -> Permutation (dedupe_dirs l1) (dedupe_dirs l2).
Proof.
  intros l1 l2 H. apply NoDup_Permutation; try apply dedupe_dirs_NoDup.
  intro x. rewrite !dedupe_dirs_In. apply H.
Qed.

Lemma dirs_rejected_dedupe_ext : forall allow d1 d2, (forall x, In x d1 <-> In x d2) ->
  dirs_rejected allow (dedupe_dirs d1) = dirs_rejected allow (dedupe_dirs d2).
Proof. intros allow d1 d2 H. apply dirs_rejected_ext. intro x. rewrite !dedupe_dirs_In. apply H. Qed.

Lemma listing_dedupe_ext : forall files d1 d2, (forall x, In x d1 <-> In x d2) -> ukeys (dedupe_dirs d1) files ->
  listing (dedupe_dirs d1) files = listing (dedupe_dirs d2) files.
Proof. intros files d1 d2 H U. apply listing_perm; [|exact U]. apply pairs_of_perm_roots, dedupe_dirs_perm, H. Qed.

Section RunPerm.
Variable txt : Z -> list item.

(* C10_perm: the order in which the operating system / a Python set enumerates the files is irrelevant *)
Lemma run_namespace_perm : forall f1 f2 root lookups allow,
  Permutation f1 f2 -> ukeys (dedupe_dirs (lookups ++ [root])) f1 ->
  run_namespace txt f1 root lookups allow = run_namespace txt f2 root lookups allow.
Proof.
  intros f1 f2 root lookups allow P U2. unfold run_namespace.
  assert (U1 : ukeys [root] f1).
  { apply (ukeys_one _ _ root) in U2; [exact U2|]. apply dedupe_dirs_In, in_or_app. right. left. reflexivity. }
  rewrite (listing_perm [root] f1 [root] f2 (pairs_of_perm_files _ _ _ P) U1).
  rewrite (listing_perm _ f1 _ f2 (pairs_of_perm_files _ _ _ P) U2). reflexivity.
Qed.

Lemma run_files_perm : forall f1 f2 ids roots lookups,
  Permutation f1 f2 -> NoDup (map fid f1) ->
  (forall ps, targets_of f1 roots ids = Ok ps -> ukeys (dedupe_dirs (lookups ++ map fst (dedupe_files ps) ++ roots)) f1) ->
  run_files txt f1 ids roots lookups = run_files txt f2 ids roots lookups.
Proof.
  intros f1 f2 ids roots lookups P N U. unfold run_files.
  rewrite (targets_of_perm f1 f2 roots ids P N) in U |- *.
  destruct (targets_of f2 roots ids) as [[|p ps]|e] eqn:T; try reflexivity.
  rewrite (listing_perm _ f1 _ f2 (pairs_of_perm_files _ _ _ P) (U _ eq_refl)). reflexivity.
Qed.

(* C10_dir_args: order and duplication of the lookup directory arguments are irrelevant *)
Lemma run_namespace_dir_args : forall files root lk1 lk2 allow,
  (forall x, In x lk1 <-> In x lk2) -> ukeys (dedupe_dirs (lk1 ++ [root])) files ->
  run_namespace txt files root lk1 allow = run_namespace txt files root lk2 allow.
Proof.
  intros files root lk1 lk2 allow H U. unfold run_namespace.
  assert (Hs : forall x, In x (lk1 ++ [root]) <-> In x (lk2 ++ [root])).
  { intro x. rewrite !in_app_iff, H. tauto. }
  rewrite (dirs_rejected_dedupe_ext allow _ _ Hs), (listing_dedupe_ext files _ _ Hs U). reflexivity.
Qed.

Lemma run_files_dir_args : forall files ids roots lk1 lk2,
  (forall x, In x lk1 <-> In x lk2) ->
  (forall ps, targets_of files roots ids = Ok ps -> ukeys (dedupe_dirs (lk1 ++ map fst (dedupe_files ps) ++ roots)) files) ->
  run_files txt files ids roots lk1 = run_files txt files ids roots lk2.
Proof.
  intros files ids roots lk1 lk2 H U. unfold run_files.
  destruct (targets_of files roots ids) as [[|p ps]|e] eqn:T; try reflexivity.
  set (ps' := dedupe_files (p :: ps)).
  assert (Hs : forall x, In x (lk1 ++ map fst ps' ++ roots) <-> In x (lk2 ++ map fst ps' ++ roots)).
  { intro x. rewrite !in_app_iff, H. tauto. }
  rewrite (dirs_rejected_dedupe_ext true _ _ Hs), (listing_dedupe_ext files _ _ Hs (U _ eq_refl)). reflexivity.
Qed.
End RunPerm.
