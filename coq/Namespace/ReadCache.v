(* C09 - the reader with the per-object cache: whatever has been read before, through whichever referrer and in
   whichever order, a read returns what reading the definition on its own returns (under case_unique).
   C10 - what a successful read leaves in the cache and tells the visitor. *)
From Coq Require Import ZArith List Bool Lia.
From PV Require Import Namespace.Reader Namespace.ReaderProofs Namespace.ReadPure.
Import ListNotations.
Open Scope Z_scope.

Lemma eval_itemsS_cong : forall (rd1 rd2 : meta -> cache -> res (ctree * cache * list event)) me M1 M2 its line c,
  (forall n a b arr, In (Ref n a b arr) its -> resolve me n a b M1 = resolve me n a b M2) ->
  (forall n a b arr x c0, In (Ref n a b arr) its -> resolve me n a b M1 = RFound x -> rd1 x c0 = rd2 x c0) ->
  eval_itemsS rd1 me M1 line its c = eval_itemsS rd2 me M2 line its c.
Proof.
  intros rd1 rd2 me M1 M2. induction its as [|it its IH]; intros line c HR H; simpl; [reflexivity|].
  assert (HR' : forall n a b arr, In (Ref n a b arr) its -> resolve me n a b M1 = resolve me n a b M2).
  { intros. eapply HR. right. eassumption. }
  assert (H' : forall n a b arr x c0, In (Ref n a b arr) its -> resolve me n a b M1 = RFound x -> rd1 x c0 = rd2 x c0).
  { intros. eapply H; [right; eassumption|eassumption]. }
  destruct it as [n a b arr| | |w].
  - rewrite <- (HR n a b arr (or_introl eq_refl)).
    destruct (resolve me n a b M1) as [x| | |] eqn:R; try reflexivity.
    rewrite <- (H n a b arr x c (or_introl eq_refl) R).
    destruct (rd1 x c) as [[[t c1] ev1]|e]; [|reflexivity]. rewrite (IH (line + 1) c1 HR' H'). reflexivity.
  - rewrite (IH (line + 1) c HR' H'). reflexivity.
  - reflexivity.
  - rewrite (IH (line + 1) c HR' H'). reflexivity.
Qed.

Lemma eval_itemsS_ref_ok : forall (rd : meta -> cache -> res (ctree * cache * list event)) me M line n a b arr r c s ks c' ev,
  eval_itemsS rd me M line (Ref n a b arr :: r) c = Ok (s, ks, c', ev) ->
  exists (x : meta) (t : ctree) (c1 : cache) (ev1 : list event) (s' : Z) (ts : list ctree) (ev2 : list event),
    resolve me n a b M = RFound x /\ rd x c = Ok (t, c1, ev1) /\
    eval_itemsS rd me M (line + 1) r c1 = Ok (s', ts, c', ev2) /\
    s = mult arr * tsize t + s' /\ ks = t :: ts /\ ev = EvDep x :: ev1 ++ ev2.
Proof.
  intros rd me M line n a b arr r c s ks c' ev H. simpl in H.
  destruct (resolve me n a b M) as [x| | |]; try discriminate.
  destruct (rd x c) as [[[t c1] ev1]|e] eqn:Rd; [|discriminate].
  destruct (eval_itemsS rd me M (line + 1) r c1) as [[[[s' ts] c2] ev2]|e] eqn:Ev; [|discriminate].
  injection H as <- <- <- <-. exists x, t, c1, ev1, s', ts, ev2. repeat split; assumption.
Qed.

Lemma eval_itemsS_print_ok : forall (rd : meta -> cache -> res (ctree * cache * list event)) me M line r c s ks c' ev,
  eval_itemsS rd me M line (Print :: r) c = Ok (s, ks, c', ev) ->
  exists ev2 : list event, eval_itemsS rd me M (line + 1) r c = Ok (s, ks, c', ev2) /\ ev = EvPrint (mfile me) line :: ev2.
Proof.
  intros rd me M line r c s ks c' ev H. simpl in H.
  destruct (eval_itemsS rd me M (line + 1) r c) as [[[[s' ts] c2] ev2]|e]; [|discriminate].
  injection H as <- <- <- <-. exists ev2. split; reflexivity.
Qed.

Lemma eval_itemsS_plain_ok : forall (rd : meta -> cache -> res (ctree * cache * list event)) me M line w r c s ks c' ev,
  eval_itemsS rd me M line (Plain w :: r) c = Ok (s, ks, c', ev) ->
  exists s' : Z, eval_itemsS rd me M (line + 1) r c = Ok (s', ks, c', ev) /\ s = w + s'.
Proof.
  intros rd me M line w r c s ks c' ev H. simpl in H.
  destruct (eval_itemsS rd me M (line + 1) r c) as [[[[s' ts] c2] ev2]|e]; [|discriminate].
  injection H as <- <- <- <-. exists s'. split; reflexivity.
Qed.

Lemma eval_itemsS_err : forall (rd : meta -> cache -> res (ctree * cache * list event)) me M its line c e,
  eval_itemsS rd me M line its c = Err e ->
  In e [EUndefined; ECollision; ECaseCollision; EFault] \/ exists x c0, In x M /\ rd x c0 = Err e.
Proof.
  intros rd me M. induction its as [|it its IH]; intros line c e H; simpl in H; [discriminate|].
  destruct it as [n a b arr| | |w].
  - destruct (resolve me n a b M) as [x| | |] eqn:R; try (injection H as <-; simpl; tauto).
    destruct (rd x c) as [[[t c1] ev1]|e1] eqn:Rd.
    + destruct (eval_itemsS rd me M (line + 1) its c1) as [[[[s ts] c2] ev2]|e2] eqn:Ev; [discriminate|].
      injection H as <-. eapply IH; eassumption.
    + injection H as <-. right. exists x, c. split; [exact (proj1 (resolve_found_cand _ _ _ _ _ _ R))|assumption].
  - destruct (eval_itemsS rd me M (line + 1) its c) as [[[[s ts] c2] ev2]|e2] eqn:Ev; [discriminate|].
    injection H as <-. eapply IH; eassumption.
  - injection H as <-. simpl. tauto.
  - destruct (eval_itemsS rd me M (line + 1) its c) as [[[[s ts] c2] ev2]|e2] eqn:Ev; [discriminate|].
    injection H as <-. eapply IH; eassumption.
Qed.

Section Cache.
Variable txt : Z -> list item.

Definition files_unique (L : list meta) : Prop := NoDup (map mfile L).

Lemma file_inj : forall L d d', files_unique L -> In d L -> In d' L -> mfile d = mfile d' -> d = d'.
Proof. intros L d d' U. apply NoDup_map_inj_on. exact U. Qed.

(* every cached composite is what reading its definition on its own yields *)
Definition cinv (L : list meta) (c : cache) : Prop :=
  forall tk f t, cache_get (tk, f) c = Some t -> exists d, In d L /\ mfile d = f /\ read_top txt d L = Ok t.

Lemma cinv_nil : forall L, cinv L [].
Proof. intros L tk f t H. discriminate. Qed.

Lemma okey_eqb_eq : forall a b, okey_eqb a b = true <-> a = b.
Proof.
  intros [a1 a2] [b1 b2]. unfold okey_eqb. simpl. rewrite andb_true_iff, Z.eqb_eq. split.
  - intros [H1 H2]. apply eqb_prop in H1. congruence.
  - intro H. inversion H. split; [apply eqb_reflx|reflexivity].
Qed.

Lemma cinv_cons : forall L c tk d t, cinv L c -> In d L -> read_top txt d L = Ok t -> cinv L (((tk, mfile d), t) :: c).
Proof.
  intros L c tk d t Hc Hd Hr tk' f t' H. simpl in H.
  destruct (okey_eqb (tk', f) (tk, mfile d)) eqn:E.
  - apply okey_eqb_eq in E. inversion E; subst. inversion H; subst. exists d. auto.
  - apply (Hc tk' f t' H).
Qed.

Lemma kminus_comm : forall K a b L, fk (kminus (kminus K a) b) L = fk (kminus (kminus K b) a) L.
Proof.
  intros. apply fk_ext. intros x _. unfold kminus.
  destruct (K (mkey x)), (keyb (mkey x) (mkey a)), (keyb (mkey x) (mkey b)); reflexivity.
Qed.

(* d refers to x, and x is out of reach below y (removed, or y itself).  A successful read below y can therefore
   never have read d, so removing d from the lookup list changes nothing. *)
Lemma read_minus_referrer : forall L, case_unique L -> forall d x, In d L -> refers txt d x ->
  forall f y K ty, K (mkey x) = false \/ mkey x = mkey y ->
  read txt f y (fk K L) = Ok ty -> read txt f y (fk (kminus K d) L) = Ok ty.
Proof.
  intros L CU d x Hd Hdx. induction f as [|f IH]; intros y K ty Hcond H; [simpl in H; discriminate|].
  simpl in H. simpl. rewrite !rm_fk in *.
  destruct (eval_items (fun z => read txt f z (fk (kminus K y) L)) y (fk (kminus K y) L) (txt (mfile y))) as [[s ks]|e] eqn:E; [|discriminate].
  assert (T : eval_items (fun z => read txt f z (fk (kminus (kminus K d) y) L)) y (fk (kminus (kminus K d) y) L) (txt (mfile y)) = Ok (s, ks)).
  { rewrite (kminus_comm K d y L).
    apply (eval_items_transfer (fun z => read txt f z (fk (kminus K y) L)) _ y (fk (kminus K y) L)); [|assumption].
    intros n a b arr z tz _ R Rz.
    (* the definition found is not (a duplicate of) the referrer d *)
    assert (Hzd : mkey z <> mkey d).
    { intro Ek.
      pose proof (resolve_found_props _ _ _ _ _ _ R) as [Hz [Hzn [Hza [Hzb Hu]]]].
      assert (d = z).
      { apply Hu.
        - apply fk_In. split; [assumption|]. apply fk_In in Hz. destruct Hz as [_ Hz]. rewrite <- Ek. assumption.
        - inversion Ek as [[E1 E2 E3]]. rewrite <- Hzn, E1. reflexivity.
        - inversion Ek. congruence.
        - inversion Ek. congruence. }
      subst z.
      destruct (refers_found txt L f d (kminus K y) tz x Rz Hdx) as [f' [x' [tx [_ [Hk [Hx' _]]]]]].
      apply fk_In in Hx'. destruct Hx' as [_ Hx']. rewrite Hk in Hx'. apply kminus_iff in Hx'. destruct Hx' as [Hx' _].
      apply kminus_iff in Hx'. destruct Hcond; [destruct Hx'; congruence|tauto]. }
    split.
    - apply (resolve_shrink L y n a b (kminus (kminus K y) d) (kminus K y) z).
      + intros k Hk. apply kminus_iff in Hk. tauto.
      + pose proof (proj1 (resolve_found_cand _ _ _ _ _ _ R)) as Hz. apply fk_In in Hz. apply kminus_iff. tauto.
      + assumption.
    - apply IH; [|assumption]. left. apply not_true_iff_false. rewrite kminus_iff.
      intros [H1 H2]. destruct Hcond; [congruence|contradiction]. }
  rewrite T. assumption.
Qed.

Lemma rm_as_fk : forall d L, rm d L = fk (kminus kall d) L.
Proof. intros. rewrite <- (fk_all L) at 1. apply rm_fk. Qed.

(* for a reference d -> x: grow the key filter to everything (resolve_grow), then take the referrer d out again
   (read_minus_referrer) *)
Lemma eval_itemsS_sound : forall L d K f0 (rd : meta -> cache -> res (ctree * cache * list event)),
  case_unique L -> In d L -> (length (rm d L) <= f0)%nat ->
  (forall x c0 t c1 ev, In x (fk (kminus K d) L) -> cinv L c0 -> rd x c0 = Ok (t, c1, ev) -> read_top txt x L = Ok t /\ cinv L c1) ->
  forall its line c s ks c' ev,
  (forall it, In it its -> In it (txt (mfile d))) ->
  cinv L c ->
  eval_itemsS rd d (fk (kminus K d) L) line its c = Ok (s, ks, c', ev) ->
  cinv L c' /\ eval_items (fun x => read txt f0 x (rm d L)) d (rm d L) its = Ok (s, ks).
Proof.
  intros L d K f0 rd CU Hd Hf0 Hrd. induction its as [|it its IH]; intros line c s ks c' ev Hsub Hc E.
  - simpl in E. injection E as <- <- <- <-. split; [assumption|reflexivity].
  - assert (Hsub' : forall it0, In it0 its -> In it0 (txt (mfile d))) by (intros; apply Hsub; right; assumption).
    destruct it as [n a b arr| | |w].
    + apply eval_itemsS_ref_ok in E. destruct E as (x & t & c1 & ev1 & s' & ts & ev2 & R & Rd & Ev & -> & -> & ->).
      pose proof (proj1 (resolve_found_cand _ _ _ _ _ _ R)) as Hx.
      destruct (Hrd x c t c1 ev1 Hx Hc Rd) as [Hrt Hc1].
      destruct (IH _ _ _ _ _ _ Hsub' Hc1 Ev) as [Hc2 Hev]. split; [assumption|].
      simpl. rewrite (rm_as_fk d L).
      assert (Hsubk : forall k, kminus K d k = true -> kminus kall d k = true).
      { intros k Hk. apply kminus_iff in Hk. apply kminus_iff. split; [reflexivity|tauto]. }
      rewrite (resolve_grow L d n a b (kminus K d) (kminus kall d) x CU Hsubk R).
      assert (Hxm : In x (fk (kminus kall d) L)).
      { apply fk_In in Hx. destruct Hx as [Hx1 Hx2]. apply fk_In. split; [assumption|apply Hsubk; assumption]. }
      assert (Rx : read txt f0 x (fk (kminus kall d) L) = Ok t).
      { assert (Hdx : refers txt d x).
        { pose proof (resolve_found_props _ _ _ _ _ _ R) as [_ [Hn [Ha [Hb _]]]].
          exists n, a, b, arr. split; [apply Hsub; left; reflexivity|auto]. }
        unfold read_top in Hrt. rewrite <- (fk_all L) in Hrt at 2.
        apply (read_minus_referrer L CU d x Hd Hdx) in Hrt.
        - apply read_ok_to_top in Hrt. apply read_top_ok_to_fuel; [assumption|].
          pose proof (rm_length_lt x _ Hxm). rewrite <- (rm_as_fk d L) in *. lia.
        - right. reflexivity. }
      rewrite Rx. rewrite <- (rm_as_fk d L). rewrite Hev. reflexivity.
    + apply eval_itemsS_print_ok in E. destruct E as (ev2 & Ev & ->). simpl. eapply IH; eassumption.
    + discriminate.
    + apply eval_itemsS_plain_ok in E. destruct E as (s' & Ev & ->). simpl.
      destruct (IH _ _ _ _ _ _ Hsub' Hc Ev) as [Hc2 Hev]. split; [assumption|]. rewrite Hev. reflexivity.
Qed.

Lemma readS_sound : forall L, case_unique L -> files_unique L -> forall f tk d K c t c' ev,
  In d L -> cinv L c -> readS txt f tk d (fk K L) c = Ok (t, c', ev) -> read_top txt d L = Ok t /\ cinv L c'.
Proof.
  intros L CU FU. induction f as [|f IH]; intros tk d K c t c' ev Hd Hc H; simpl in H; [discriminate|].
  destruct (cache_get (tk, mfile d) c) as [t0|] eqn:G.
  - injection H as <- <- <-. split; [|assumption].
    destruct (Hc _ _ _ G) as [d0 [Hd0 [Hf Hr]]]. rewrite (file_inj L d d0 FU Hd Hd0 (eq_sym Hf)). assumption.
  - rewrite rm_fk in H.
    destruct (eval_itemsS (fun x c0 => readS txt f false x (fk (kminus K d) L) c0) d (fk (kminus K d) L) 1 (txt (mfile d)) c)
      as [[[[s ks] c1] ev1]|e] eqn:E; [|discriminate].
    injection H as <- <- <-.
    assert (Hrd : forall x c0 t c2 ev0, In x (fk (kminus K d) L) -> cinv L c0 ->
              readS txt f false x (fk (kminus K d) L) c0 = Ok (t, c2, ev0) -> read_top txt x L = Ok t /\ cinv L c2).
    { intros x c0 t c2 ev0 Hx Hc0 Hr. apply fk_In in Hx. destruct Hx as [Hx _]. eapply IH; eassumption. }
    destruct (eval_itemsS_sound L d K (length L) (fun x c0 => readS txt f false x (fk (kminus K d) L) c0) CU Hd (rm_length_le d L) Hrd
                (txt (mfile d)) 1 c s ks c1 ev1 (fun it H => H) Hc E) as [Hc1 Hev].
    assert (Hr : read_top txt d L = Ok (node_of d s ks)).
    { unfold read_top. simpl. rewrite Hev. reflexivity. }
      split; [assumption|]. apply cinv_cons; assumption.
Qed.

Lemma eval_itemsS_complete : forall L d K f,
  case_unique L -> files_unique L ->
  (forall x c t, In x L -> cinv L c -> read txt f x (fk (kminus K d) L) = Ok t ->
     exists c' ev, readS txt f false x (fk (kminus K d) L) c = Ok (t, c', ev)) ->
  forall its line c s ks, cinv L c ->
  eval_items (fun x => read txt f x (fk (kminus K d) L)) d (fk (kminus K d) L) its = Ok (s, ks) ->
  exists c' ev, eval_itemsS (fun x c0 => readS txt f false x (fk (kminus K d) L) c0) d (fk (kminus K d) L) line its c = Ok (s, ks, c', ev).
Proof.
  intros L d K f CU FU Hrd. induction its as [|it its IH]; intros line c s ks Hc E; simpl in E; simpl.
  - injection E as <- <-. eauto.
  - destruct it as [n a b arr| | |w].
    + destruct (resolve d n a b (fk (kminus K d) L)) as [x| | |] eqn:R; try discriminate.
      destruct (read txt f x (fk (kminus K d) L)) as [t|e] eqn:Rd; [|discriminate].
      destruct (eval_items (fun x => read txt f x (fk (kminus K d) L)) d (fk (kminus K d) L) its) as [[s' ts]|e] eqn:Ev; [|discriminate].
      injection E as <- <-.
      pose proof (proj1 (resolve_found_cand _ _ _ _ _ _ R)) as Hx. apply fk_In in Hx. destruct Hx as [Hx _].
      destruct (Hrd x c t Hx Hc Rd) as [c1 [ev1 Hs]]. rewrite Hs.
      destruct (readS_sound L CU FU f false x (kminus K d) c t c1 ev1 Hx Hc Hs) as [_ Hc1].
      destruct (IH (line + 1) c1 s' ts Hc1 eq_refl) as [c2 [ev2 Hs2]]. rewrite Hs2. eauto.
    + destruct (IH (line + 1) c s ks Hc E) as [c2 [ev2 Hs2]]. rewrite Hs2. eauto.
    + discriminate.
    + destruct (eval_items (fun x => read txt f x (fk (kminus K d) L)) d (fk (kminus K d) L) its) as [[s' ts]|e] eqn:Ev; [|discriminate].
      injection E as <- <-. destruct (IH (line + 1) c s' ts Hc eq_refl) as [c2 [ev2 Hs2]]. rewrite Hs2. eauto.
Qed.

Lemma readS_complete : forall L, case_unique L -> files_unique L -> forall f tk d K c t,
  In d L -> cinv L c -> read txt f d (fk K L) = Ok t -> exists c' ev, readS txt f tk d (fk K L) c = Ok (t, c', ev).
Proof.
  intros L CU FU. induction f as [|f IH]; intros tk d K c t Hd Hc H; [simpl in H; discriminate|].
  simpl. destruct (cache_get (tk, mfile d) c) as [t0|] eqn:G.
  - destruct (Hc _ _ _ G) as [d0 [Hd0 [Hf Hr]]]. rewrite <- (file_inj L d d0 FU Hd Hd0 (eq_sym Hf)) in Hr.
    apply (read_grow txt L CU (S f) d K kall t) in H; [|reflexivity]. rewrite fk_all in H.
    apply read_ok_to_top in H. assert (t0 = t) by congruence. subst. eauto.
  - simpl in H. rewrite rm_fk in *.
    destruct (eval_items (fun x => read txt f x (fk (kminus K d) L)) d (fk (kminus K d) L) (txt (mfile d))) as [[s ks]|e] eqn:E; [|discriminate].
    injection H as <-.
    assert (Hrd : forall x c0 t0, In x L -> cinv L c0 -> read txt f x (fk (kminus K d) L) = Ok t0 ->
              exists c' ev, readS txt f false x (fk (kminus K d) L) c0 = Ok (t0, c', ev)).
    { intros x c0 t0 Hx Hc0 Hr. apply IH; assumption. }
    destruct (eval_itemsS_complete L d K f CU FU Hrd (txt (mfile d)) 1 c s ks Hc E) as [c1 [ev1 Hs]].
    rewrite Hs. eauto.
Qed.

Lemma readS_top_sound : forall L, case_unique L -> files_unique L -> forall tk d c t c' ev,
  In d L -> cinv L c -> readS txt (S (length L)) tk d L c = Ok (t, c', ev) -> read_top txt d L = Ok t /\ cinv L c'.
Proof.
  intros L CU FU tk d c t c' ev Hd Hc H. rewrite <- (fk_all L) in H at 2. exact (readS_sound L CU FU _ _ _ _ _ _ _ _ Hd Hc H).
Qed.

Lemma readS_top_complete : forall L, case_unique L -> files_unique L -> forall tk d c t,
  In d L -> cinv L c -> read_top txt d L = Ok t -> exists c' ev, readS txt (S (length L)) tk d L c = Ok (t, c', ev).
Proof.
  intros L CU FU tk d c t Hd Hc H.
  destruct (readS_complete L CU FU (S (length L)) tk d kall c t Hd Hc) as [c' [ev Hs]]; [rewrite fk_all; exact H|].
  rewrite fk_all in Hs. eauto.
Qed.

Lemma eval_itemsS_nofuel : forall (rd : meta -> cache -> res (ctree * cache * list event)) me L its line c,
  (forall x c0, In x L -> rd x c0 <> Err EFuel) -> eval_itemsS rd me L line its c <> Err EFuel.
Proof.
  intros rd me L its line c H E. apply eval_itemsS_err in E. destruct E as [E|[x [c0 [Hx E]]]].
  - simpl in E. intuition discriminate.
  - exact (H x c0 Hx E).
Qed.

Lemma readS_err : forall f tk d M c e, readS txt f tk d M c = Err e ->
  In e [EUndefined; ECollision; ECaseCollision; EFault; EFuel].
Proof.
  induction f as [|f IH]; intros tk d M c e H; simpl in H; [injection H as <-; simpl; tauto|].
  destruct (cache_get (tk, mfile d) c); [discriminate|].
  destruct (eval_itemsS (fun x c' => readS txt f false x (rm d M) c') d (rm d M) 1 (txt (mfile d)) c) as [[[[s ks] c1] ev]|e1] eqn:E;
    [discriminate|].
  injection H as <-. apply eval_itemsS_err in E. destruct E as [E|[x [c0 [_ E]]]].
  - simpl in *. tauto.
  - eapply IH; eassumption.
Qed.

Lemma readS_terminates_gen : forall f tk d M c, (length (rm d M) < f)%nat -> readS txt f tk d M c <> Err EFuel.
Proof.
  induction f as [|f IH]; intros tk d M c Hlen; [lia|]. simpl.
  destruct (cache_get (tk, mfile d) c); [discriminate|].
  assert (NF : eval_itemsS (fun x c' => readS txt f false x (rm d M) c') d (rm d M) 1 (txt (mfile d)) c <> Err EFuel).
  { apply eval_itemsS_nofuel. intros x c0 Hx. apply IH. pose proof (rm_length_lt x (rm d M) Hx). lia. }
  destruct (eval_itemsS (fun x c' => readS txt f false x (rm d M) c') d (rm d M) 1 (txt (mfile d)) c) as [[[[s ks] c1] ev]|e];
    [discriminate|congruence].
Qed.

Lemma readS_top_terminates : forall tk d L c, readS txt (S (length L)) tk d L c <> Err EFuel.
Proof. intros. apply readS_terminates_gen. pose proof (rm_length_le d L). lia. Qed.

Lemma readS_fuel_irrel : forall f f' tk d M c, (length (rm d M) < f)%nat -> (length (rm d M) < f')%nat ->
  readS txt f tk d M c = readS txt f' tk d M c.
Proof.
  induction f as [|f IH]; intros f' tk d M c Hf Hf'; [lia|]. destruct f' as [|f']; [lia|]. simpl.
  destruct (cache_get (tk, mfile d) c); [reflexivity|].
  rewrite (eval_itemsS_cong (fun x c' => readS txt f false x (rm d M) c') (fun x c' => readS txt f' false x (rm d M) c')
             d (rm d M) (rm d M)); [reflexivity|reflexivity|].
  intros n a b arr x c0 _ R. pose proof (rm_length_lt x _ (proj1 (resolve_found_cand _ _ _ _ _ _ R))). apply IH; lia.
Qed.

(* C09_cache_order: an arbitrary sequence of top-level reads (any objects, any order, repetitions) threading the
   cache, stopped by the first failure as in the implementation *)

Fixpoint read_seq (L : list meta) (c : cache) (os : list (bool * meta)) : list ctree * bool :=
  match os with
  | [] => ([], true)
  | (tk, d) :: r =>
      match readS txt (S (length L)) tk d L c with
      | Ok (t, c', _) => let '(ts, ok) := read_seq L c' r in (t :: ts, ok)
      | Err _ => ([], false)
      end
  end.

Fixpoint pure_seq (L : list meta) (ds : list meta) : list ctree * bool :=
  match ds with
  | [] => ([], true)
  | d :: r =>
      match read_top txt d L with
      | Ok t => let '(ts, ok) := pure_seq L r in (t :: ts, ok)
      | Err _ => ([], false)
      end
  end.

Lemma read_seq_pure : forall L, case_unique L -> files_unique L -> forall os c,
  (forall o, In o os -> In (snd o) L) -> cinv L c ->
  read_seq L c os = pure_seq L (map snd os).
Proof.
  intros L CU FU. induction os as [|[tk d] os IH]; intros c Hin Hc; [reflexivity|]. cbn [read_seq pure_seq map snd].
  assert (Hd : In d L) by (apply (Hin (tk, d)); left; reflexivity).
  destruct (readS txt (S (length L)) tk d L c) as [[[t c'] ev]|e] eqn:E.
  - destruct (readS_top_sound L CU FU _ _ _ _ _ _ Hd Hc E) as [Hr Hc']. rewrite Hr.
    rewrite (IH c'); [reflexivity| |assumption]. intros o Ho. apply Hin. right. assumption.
  - destruct (read_top txt d L) as [t|e'] eqn:R; [|reflexivity].
    exfalso. destruct (readS_top_complete L CU FU tk d c t Hd Hc R) as [c' [ev Hs]]. congruence.
Qed.

End Cache.

(* what a successful read leaves behind: which objects are cached afterwards, which dependencies the visitor was
   told about, and how both relate to the returned tree (used by the loop invariant of _read_definitions) *)

Definition cached (o : okey) (c : cache) : Prop := cache_get o c <> None.

(* the composite types of the fields of every cached composite are cached as lookup objects *)
Definition kidsinv (c : cache) : Prop :=
  forall o t, cache_get o c = Some t -> forall k, In k (tkids t) -> cached (false, tfile k) c.

Lemma cached_cons : forall o e c, cached o c -> cached o (e :: c).
Proof.
  intros o [o' t] c H. unfold cached in *. simpl. destruct (okey_eqb o o'); [discriminate|assumption].
Qed.

Lemma kidsinv_nil : kidsinv [].
Proof. intros o t H. discriminate. Qed.

Section Events.
Variable txt : Z -> list item.
Variable L : list meta.
Hypothesis CU : case_unique L.
Hypothesis FU : files_unique L.

Record read_effect (tk : bool) (d : meta) (c : cache) (t : ctree) (c' : cache) (ev : list event) : Prop := {
  f_kids : kidsinv c';
  f_mono : forall o, cached o c -> cached o c';
  f_self : cached (tk, mfile d) c';
  f_deps : forall x, In (EvDep x) ev -> In x L /\ cached (false, mfile x) c' /\ exists tx, sdesc tx t /\ tfile tx = mfile x;
  f_new : forall o, cached o c' -> cached o c \/ o = (tk, mfile d) \/ exists x, In (EvDep x) ev /\ o = (false, mfile x)
}.

Record items_effect (c : cache) (ks : list ctree) (c' : cache) (ev : list event) : Prop := {
  if_kids : kidsinv c';
  if_mono : forall o, cached o c -> cached o c';
  if_tkids : forall k, In k ks -> cached (false, tfile k) c';
  if_deps : forall x, In (EvDep x) ev -> In x L /\ cached (false, mfile x) c' /\
                                          exists tx, (In tx ks \/ exists k, In k ks /\ sdesc tx k) /\ tfile tx = mfile x;
  if_new : forall o, cached o c' -> cached o c \/ exists x, In (EvDep x) ev /\ o = (false, mfile x)
}.

Lemma eval_itemsS_effect : forall f d K,
  (forall x c t c1 ev, cinv txt L c -> kidsinv c ->
     readS txt f false x (fk (kminus K d) L) c = Ok (t, c1, ev) -> read_effect false x c t c1 ev) ->
  forall its line c s ks c' ev, cinv txt L c -> kidsinv c ->
  eval_itemsS (fun x c0 => readS txt f false x (fk (kminus K d) L) c0) d (fk (kminus K d) L) line its c = Ok (s, ks, c', ev) ->
  items_effect c ks c' ev.
Proof.
  intros f d K Hrd. induction its as [|it its IH]; intros line c s ks c' ev Hc Hk E.
  - simpl in E. injection E as <- <- <- <-. constructor; auto; try (intros; contradiction).
  - destruct it as [n a b arr| | |w].
    + apply eval_itemsS_ref_ok in E. destruct E as (x & t & c1 & ev1 & s' & ts & ev2 & R & Rd & Ev & -> & -> & ->).
      pose proof (proj1 (resolve_found_cand _ _ _ _ _ _ R)) as Hx. apply fk_In in Hx. destruct Hx as [Hx _].
      destruct (readS_sound txt L CU FU f false x (kminus K d) c t c1 ev1 Hx Hc Rd) as [Hrt Hc1].
      pose proof (proj2 (read_top_key _ _ _ _ Hrt)) as Hft.
      pose proof (Hrd x c t c1 ev1 Hc Hk Rd) as F1.
      pose proof (IH (line + 1) c1 s' ts c' ev2 Hc1 (f_kids _ _ _ _ _ _ F1) Ev) as F2.
      constructor.
      * exact (if_kids _ _ _ _ F2).
      * intros o Ho. apply (if_mono _ _ _ _ F2). apply (f_mono _ _ _ _ _ _ F1). assumption.
      * intros k [Hk0|Hk0].
        -- subst k. apply (if_mono _ _ _ _ F2). rewrite Hft. exact (f_self _ _ _ _ _ _ F1).
        -- apply (if_tkids _ _ _ _ F2). assumption.
      * intros y Hy. destruct Hy as [Hy|Hy].
        -- inversion Hy; subst y. split; [assumption|]. split.
           ++ apply (if_mono _ _ _ _ F2). exact (f_self _ _ _ _ _ _ F1).
           ++ exists t. split; [left; left; reflexivity|assumption].
        -- apply in_app_iff in Hy. destruct Hy as [Hy|Hy].
           ++ destruct (f_deps _ _ _ _ _ _ F1 y Hy) as [H1 [H2 [tx [H3 H4]]]]. split; [assumption|]. split.
              ** apply (if_mono _ _ _ _ F2). assumption.
              ** exists tx. split; [right; exists t; split; [left; reflexivity|assumption]|assumption].
           ++ destruct (if_deps _ _ _ _ F2 y Hy) as [H1 [H2 [tx [H3 H4]]]]. split; [assumption|]. split; [assumption|].
              exists tx. split; [|assumption]. destruct H3 as [H3|[k [H3 H5]]].
              ** left. right. assumption.
              ** right. exists k. split; [right; assumption|assumption].
      * intros o Ho. destruct (if_new _ _ _ _ F2 o Ho) as [H1|[y [H1 H2]]].
        -- destruct (f_new _ _ _ _ _ _ F1 o H1) as [H3|[H3|[y [H3 H4]]]].
           ++ left. assumption.
           ++ right. exists x. split; [left; reflexivity|assumption].
           ++ right. exists y. split; [right; apply in_app_iff; left; assumption|assumption].
        -- right. exists y. split; [right; apply in_app_iff; right; assumption|assumption].
    + apply eval_itemsS_print_ok in E. destruct E as (ev2 & Ev & ->).
      pose proof (IH (line + 1) c s ks c' ev2 Hc Hk Ev) as F2.
      constructor; try apply F2.
      * intros y Hy. destruct Hy as [Hy|Hy]; [discriminate|]. apply (if_deps _ _ _ _ F2). assumption.
      * intros o Ho. destruct (if_new _ _ _ _ F2 o Ho) as [H1|[y [H1 H2]]]; [left; assumption|].
        right. exists y. split; [right; assumption|assumption].
    + discriminate.
    + apply eval_itemsS_plain_ok in E. destruct E as (s' & Ev & ->). exact (IH (line + 1) c s' ks c' ev Hc Hk Ev).
Qed.

Lemma readS_effect : forall f tk d K c t c' ev, cinv txt L c -> kidsinv c ->
  readS txt f tk d (fk K L) c = Ok (t, c', ev) -> read_effect tk d c t c' ev.
Proof.
  induction f as [|f IH]; intros tk d K c t c' ev Hc Hk H; simpl in H; [discriminate|].
  destruct (cache_get (tk, mfile d) c) as [t0|] eqn:G.
  - injection H as <- <- <-. constructor; auto.
    + unfold cached. rewrite G. discriminate.
    + intros x Hx. contradiction.
  - rewrite rm_fk in H.
    destruct (eval_itemsS (fun x c0 => readS txt f false x (fk (kminus K d) L) c0) d (fk (kminus K d) L) 1 (txt (mfile d)) c)
      as [[[[s ks] c1] ev1]|e] eqn:E; [|discriminate].
    injection H as <- <- <-.
    assert (Hrd : forall x c0 t0 c2 ev0, cinv txt L c0 -> kidsinv c0 ->
              readS txt f false x (fk (kminus K d) L) c0 = Ok (t0, c2, ev0) -> read_effect false x c0 t0 c2 ev0).
    { intros. eapply IH; eassumption. }
    pose proof (eval_itemsS_effect f d K Hrd (txt (mfile d)) 1 c s ks c1 ev1 Hc Hk E) as F.
    constructor.
    + intros o t0 Ho k Hk0. simpl in Ho. destruct (okey_eqb o (tk, mfile d)) eqn:Eo.
      * inversion Ho; subst t0. simpl in Hk0. apply cached_cons. apply (if_tkids _ _ _ _ F). assumption.
      * apply cached_cons. eapply (if_kids _ _ _ _ F); eassumption.
    + intros o Ho. apply cached_cons. apply (if_mono _ _ _ _ F). assumption.
    + unfold cached. simpl. assert (Er : okey_eqb (tk, mfile d) (tk, mfile d) = true) by (apply okey_eqb_eq; reflexivity).
      rewrite Er. discriminate.
    + intros x Hx. destruct Hx as [Hx|Hx]; [discriminate|].
      destruct (if_deps _ _ _ _ F x Hx) as [H1 [H2 [tx [H3 H4]]]]. split; [assumption|]. split; [apply cached_cons; assumption|].
      exists tx. split; [|assumption]. destruct H3 as [H3|[k [H3 H5]]].
      * apply sd_kid. simpl. assumption.
      * eapply sd_deep; [|eassumption]. simpl. assumption.
    + intros o Ho. unfold cached in Ho. simpl in Ho. destruct (okey_eqb o (tk, mfile d)) eqn:Eo.
      * right. left. apply okey_eqb_eq. assumption.
      * destruct (if_new _ _ _ _ F o Ho) as [H1|[y [H1 H2]]]; [left; assumption|].
        right. right. exists y. split; [right; assumption|assumption].
Qed.

End Events.
