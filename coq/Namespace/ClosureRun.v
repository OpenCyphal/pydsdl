(* C19 - noninterference at the level of the public entry points. *)
From Coq Require Import ZArith List.
From PV Require Import Namespace.Reader Namespace.Listing Namespace.Closure Namespace.Scope.
Import ListNotations.
Open Scope Z_scope.

(* the targets and the lookup list of a call (when the directories are accepted and all file names parse) *)
Definition call_lists (files : list fent) (q : query) : option (list meta * list meta) :=
  match q with
  | QNamespace root lookups allow =>
      match listing [root] files, listing (dedupe_dirs (lookups ++ [root])) files with
      | Ok targets, Ok L => Some (targets, L)
      | _, _ => None
      end
  | QFiles ids roots lookups =>
      match targets_of files roots ids with
      | Ok ps =>
          let ps := dedupe_files ps in
          match listing (dedupe_dirs (lookups ++ map fst ps ++ roots)) files with
          | Ok L => Some (sort_metas (map (fun rf => mk_meta (fst rf) (snd rf)) ps), L)
          | Err _ => None
          end
      | Err _ => None
      end
  end.

Theorem run_query_agree : forall txt txt' files q,
  (forall targets L, call_lists files q = Some (targets, L) ->
     forall d, reach txt L targets d -> txt (mfile d) = txt' (mfile d)) ->
  run_query txt files q = run_query txt' files q.
Proof.
  intros txt txt' files q H. destruct q as [root lookups allow|ids roots lookups]; simpl in *.
  - unfold run_namespace. destruct (dirs_rejected allow _); [reflexivity|].
    destruct (listing [root] files) as [targets|e]; [|reflexivity].
    destruct targets as [|t0 ts]; [reflexivity|].
    destruct (listing (dedupe_dirs (lookups ++ [root])) files) as [L|e]; [|reflexivity].
    apply complete_read_agree. apply H. reflexivity.
  - unfold run_files. destruct (targets_of files roots ids) as [ps|e]; [|reflexivity].
    destruct ps as [|p ps]; [reflexivity|].
    destruct (dirs_rejected true _); [reflexivity|].
    destruct (listing _ files) as [L|e]; [|reflexivity].
    apply complete_read_agree. apply H. reflexivity.
Qed.
