(* C15 - proofs about the path model: one equivalence "accepted <-> has the shape, with these fields" per layer of the
   file-name parser, the composite-level checks reduced to name_checks, root inference strategy by strategy. *)
From Coq Require Import ZArith List Bool Lia.
From PV Require Import Util.ListSet Namespace.Paths.
Import ListNotations.
Open Scope Z_scope.

(* lists, and mapM of the model, independently of paths *)

Lemma in_nonempty {A} (x : A) l : In x l -> l <> [].
Proof. destruct l; [intros []|discriminate]. Qed.

Lemma removelast_mid {A} (pre post : list A) n b : removelast (pre ++ n :: post ++ [b]) = pre ++ n :: post.
Proof. rewrite app_comm_cons, app_assoc. apply removelast_last. Qed.

Lemma Forall2_map_l {A B C} (g : A -> B) (R : B -> C -> Prop) l ys :
  Forall2 R (map g l) ys -> Forall2 (fun x y => R (g x) y) l ys.
Proof. revert ys. induction l as [|x r IH]; intros ys H; inversion H; subst; constructor; auto. Qed.

Lemma mapM_ok {A B} (f : A -> res B) l ys : mapM f l = Ok ys -> Forall2 (fun x y => f x = Ok y) l ys.
Proof.
  revert ys. induction l as [|x r IH]; intros ys; cbn [mapM]; [intros [= <-]; constructor|].
  destruct (f x) as [y|e] eqn:E; [|discriminate]. destruct (mapM f r) as [ys'|e]; [|discriminate].
  intros [= <-]. constructor; [exact E|apply IH; reflexivity].
Qed.

Lemma is_digit_spec c : is_digit c = true <-> 48 <= c <= 57.
Proof. unfold is_digit. rewrite andb_true_iff, !Z.leb_le. tauto. Qed.

Lemma forallb_is_digit s : forallb is_digit s = true <-> forall c, In c s -> 48 <= c <= 57.
Proof. rewrite forallb_forall. split; intros H c I; apply is_digit_spec, H, I. Qed.

Lemma parse_decimal_some s v : parse_decimal s = Some v <-> digits s /\ v = dec_value s.
Proof.
  unfold parse_decimal, digits. rewrite <- forallb_is_digit. destruct s as [|c r].
  - split; [discriminate|]. intros [[H _] _]. contradiction.
  - destruct (forallb is_digit (c :: r)); split; try discriminate.
    + intros [= <-]. repeat split. discriminate.
    + intros [_ ->]. reflexivity.
    + intros [[_ H] _]. discriminate.
Qed.

Lemma parse_decimal_digits s : digits s -> parse_decimal s = Some (dec_value s).
Proof. intros H. apply parse_decimal_some. split; [exact H|reflexivity]. Qed.

Lemma has_dot_true s : has_dot s = true <-> In dot s.
Proof.
  unfold has_dot. rewrite existsb_exists. split.
  - intros (c & I & E). apply Z.eqb_eq in E. subst. exact I.
  - intros I. exists dot. split; [exact I|apply Z.eqb_refl].
Qed.

Lemma has_dot_false s : has_dot s = false <-> no_dot s.
Proof. unfold no_dot. rewrite <- has_dot_true. symmetry. apply not_true_iff_false. Qed.

Lemma existsb_has_dot_false l : existsb has_dot l = false <-> Forall no_dot l.
Proof.
  induction l as [|x r IH]; cbn [existsb]; [split; constructor|].
  rewrite orb_false_iff, Forall_cons_iff, has_dot_false, IH. reflexivity.
Qed.

Lemma no_dot_cons c r : no_dot (c :: r) <-> (c =? dot) = false /\ no_dot r.
Proof. unfold no_dot. cbn [In]. rewrite Z.eqb_neq. tauto. Qed.

Lemma split_on_nonempty sep s : split_on sep s <> [].
Proof. destruct s as [|c r]; simpl; [discriminate|]. destruct (c =? sep); [discriminate|]. destruct (split_on sep r); discriminate. Qed.

Lemma split_on_nodot s : no_dot s -> split_on dot s = [s].
Proof.
  induction s as [|c r IH]; [reflexivity|]. intros [E H]%no_dot_cons.
  cbn [split_on]. rewrite E, (IH H). reflexivity.
Qed.

Lemma split_on_app a b : no_dot a -> split_on dot (a ++ dot :: b) = a :: split_on dot b.
Proof.
  induction a as [|c r IH]; [reflexivity|]. intros [E H]%no_dot_cons.
  cbn [split_on app]. rewrite E, (IH H). reflexivity.
Qed.

Lemma join_cons a b r : join_with dot (a :: b :: r) = a ++ dot :: join_with dot (b :: r).
Proof. reflexivity. Qed.

Lemma join_split s : join_with dot (split_on dot s) = s.
Proof.
  induction s as [|c r IH]; [reflexivity|]. cbn [split_on].
  destruct (split_on dot r) as [|h t] eqn:S; [destruct (split_on_nonempty _ _ S)|].
  destruct (Z.eqb_spec c dot) as [->|_].
  - rewrite join_cons, IH. reflexivity.
  - destruct t; cbn [join_with app] in *; rewrite IH; reflexivity.
Qed.

Lemma split_parts_nodot s : Forall no_dot (split_on dot s).
Proof.
  induction s as [|c r IH]; cbn [split_on]; [repeat constructor; intros []|].
  destruct (c =? dot) eqn:E; [constructor; [intros []|exact IH]|].
  destruct (split_on dot r) as [|h t] eqn:S; [destruct (split_on_nonempty _ _ S)|].
  apply Forall_cons_iff in IH. rewrite Forall_cons_iff, no_dot_cons. tauto.
Qed.

Lemma split_join l : l <> [] -> Forall no_dot l -> split_on dot (join_with dot l) = l.
Proof.
  induction l as [|x r IH]; intros NE F; [congruence|].
  apply Forall_cons_iff in F. destruct F as [Hx Hr]. destruct r as [|y r'].
  - apply split_on_nodot, Hx.
  - rewrite join_cons, split_on_app, IH by (assumption || discriminate). reflexivity.
Qed.

Lemma split_on_spec s l : split_on dot s = l <-> l <> [] /\ Forall no_dot l /\ join_with dot l = s.
Proof.
  split.
  - intros <-. split; [apply split_on_nonempty|]. split; [apply split_parts_nodot|apply join_split].
  - intros (NE & F & <-). apply split_join; assumption.
Qed.

Lemma list_eqb_refl s : list_eqb s s = true.
Proof. apply list_eqb_eq. reflexivity. Qed.

Lemma strs_eqb_eq a b : strs_eqb a b = true <-> a = b.
Proof.
  revert b. induction a as [|x a IH]; intros [|y b]; cbn [strs_eqb]; try (split; congruence).
  rewrite andb_true_iff, list_eqb_eq, IH. split; [intros [-> ->]; reflexivity|intros [= -> ->]; split; reflexivity].
Qed.

Lemma strs_eqb_refl a : strs_eqb a a = true.
Proof. apply strs_eqb_eq. reflexivity. Qed.

Lemma strip_prefix_app pre l : strip_prefix pre (pre ++ l) = Some l.
Proof. induction pre as [|x r IH]; simpl; [reflexivity|]. rewrite list_eqb_refl. exact IH. Qed.

Lemma strip_prefix_some pre l rest : strip_prefix pre l = Some rest <-> l = pre ++ rest.
Proof.
  split; [|intros ->; apply strip_prefix_app].
  revert l. induction pre as [|x r IH]; intros l; cbn [strip_prefix app]; [congruence|].
  destruct l as [|y l']; [discriminate|]. destruct (list_eqb x y) eqn:E; [|discriminate].
  apply list_eqb_eq in E. intros H. rewrite E, (IH l' H). reflexivity.
Qed.

Lemma is_prefix_spec a b : is_prefix a b = true <-> exists rest, b = a ++ rest.
Proof.
  unfold is_prefix. destruct (strip_prefix a b) as [r|] eqn:E.
  - apply strip_prefix_some in E. split; [intros _; exists r; exact E|reflexivity].
  - split; [discriminate|]. intros (r & ->). rewrite strip_prefix_app in E. discriminate.
Qed.

Lemma digits_no_dot s : digits s -> no_dot s.
Proof. intros [_ H] I. specialize (H _ I). unfold dot in H. lia. Qed.

Definition wf_fields (sp : option str) (short smj smn sfx : str) : Prop :=
  no_dot short /\ digits smj /\ digits smn /\ no_dot sfx /\ match sp with Some p => digits p | None => True end.

(* the dot-separated parts of a base name *)
Definition fields (sp : option str) (short smj smn sfx : str) : list str :=
  match sp with Some p => [p] | None => [] end ++ [short; smj; smn; sfx].

Lemma render_basename_join sp short smj smn sfx :
  render_basename sp short smj smn sfx = join_with dot (fields sp short smj smn sfx).
Proof. destruct sp; reflexivity. Qed.

Lemma wf_fields_no_dot sp short smj smn sfx : wf_fields sp short smj smn sfx -> Forall no_dot (fields sp short smj smn sfx).
Proof. intros (Hs & Dj & Dn & Hx & Dp). destruct sp; repeat constructor; auto using digits_no_dot. Qed.

Lemma fields_no_dot sp short smj smn sfx : Forall no_dot (fields sp short smj smn sfx) -> no_dot short /\ no_dot sfx.
Proof. intros F. rewrite Forall_forall in F. split; apply F; destruct sp; cbn; auto 6. Qed.

Lemma parse_basename_spec b sp short smj smn :
  parse_basename b = Some (sp, short, smj, smn) <->
  exists sfx, b = render_basename sp short smj smn sfx /\ Forall no_dot (fields sp short smj smn sfx).
Proof.
  unfold parse_basename. split.
  - destruct (proj1 (split_on_spec b _) eq_refl) as (NE & F & J).
    destruct (exists_last NE) as (parts & sfx & E). rewrite E in *. rewrite removelast_last.
    destruct parts as [|x1 [|x2 [|x3 [|x4 [|x5 r]]]]]; try discriminate.
    all: intros [= <- <- <- <-]; exists sfx; split; [symmetry; exact J|exact F].
  - intros (sfx & -> & F). rewrite render_basename_join, split_join by (exact F || (destruct sp; discriminate)).
    destruct sp; reflexivity.
Qed.

(* the value bound to `port` in parse_rel, which has this match inline *)
Definition parse_port (sp : option str) : option (option Z) :=
  match sp with
  | Some t => match parse_decimal t with Some v => Some (Some v) | None => None end
  | None => Some None
  end.

Lemma parse_port_some sp p :
  parse_port sp = Some p <-> p = option_map dec_value sp /\ match sp with Some t => digits t | None => True end.
Proof.
  destruct sp as [t|]; cbn [parse_port option_map]; [|split; [intros [= <-]; auto|intros [-> _]; reflexivity]].
  destruct (parse_decimal t) as [v|] eqn:E.
  - apply parse_decimal_some in E. destruct E as [D ->]. split; [intros [= <-]; auto|intros [-> _]; reflexivity].
  - split; [discriminate|]. intros [_ D]. rewrite (parse_decimal_digits _ D) in E. discriminate.
Qed.

(* what parse_rel accepts below a root directory named rn, and what it returns *)
Inductive rel_shape (rn : str) : list comp -> str * Z * Z * option Z -> Prop :=
| RelShape ds sp short smj smn sfx :
    Forall no_dot ds -> wf_fields sp short smj smn sfx ->
    rel_shape rn (ds ++ [render_basename sp short smj smn sfx])
              (join_with dot ((rn :: ds) ++ [short]), dec_value smj, dec_value smn, option_map dec_value sp).

Lemma parse_rel_spec rn rel x : parse_rel rn rel = Some x <-> no_dot rn /\ rel_shape rn rel x.
Proof.
  unfold parse_rel, pname. split.
  - destruct (has_dot rn) eqn:Hrn; [discriminate|]. apply has_dot_false in Hrn. cbv zeta.
    induction rel as [|b ds _] using rev_ind.
    { (* the root directory itself: its name has no dot, hence fewer than three parts *)
      unfold parse_basename. cbn [last]. rewrite (split_on_nodot rn Hrn). discriminate. }
    rewrite app_comm_cons, last_last, removelast_last.
    destruct (parse_basename b) as [[[[sp short] smj] smn]|] eqn:PB; [|discriminate].
    apply parse_basename_spec in PB. destruct PB as (sfx & -> & F).
    apply fields_no_dot in F. destruct F as [Hs Hx]. fold (parse_port sp).
    destruct (parse_port sp) as [p|] eqn:Pp; [|discriminate]. apply parse_port_some in Pp. destruct Pp as [-> Dp].
    destruct (parse_decimal smj) as [vj|] eqn:Pj; [|discriminate]. apply parse_decimal_some in Pj. destruct Pj as [Dj ->].
    destruct (parse_decimal smn) as [vn|] eqn:Pn; [|discriminate]. apply parse_decimal_some in Pn. destruct Pn as [Dn ->].
    destruct (existsb has_dot (rn :: ds)) eqn:ED; [discriminate|]. apply existsb_has_dot_false, Forall_cons_iff in ED.
    intros [= <-]. split; [exact Hrn|].
    exact (RelShape rn ds sp short smj smn sfx (proj2 ED) (conj Hs (conj Dj (conj Dn (conj Hx Dp))))).
  - intros (Hrn & [ds sp short smj smn sfx Hds W]).
    pose proof (wf_fields_no_dot _ _ _ _ _ W) as F. destruct W as (_ & Dj & Dn & _ & Dp).
    rewrite (proj2 (has_dot_false rn) Hrn), app_comm_cons, last_last, removelast_last.
    rewrite (proj2 (parse_basename_spec _ _ _ _ _) (ex_intro _ sfx (conj eq_refl F))).
    rewrite (parse_decimal_digits _ Dj), (parse_decimal_digits _ Dn).
    rewrite (proj2 (existsb_has_dot_false (rn :: ds)) (Forall_cons _ Hrn Hds)).
    fold (parse_port sp). rewrite (proj2 (parse_port_some sp _) (conj eq_refl Dp)). reflexivity.
Qed.

Lemma mk_definition_shape fs file root d :
  mk_definition fs file root = Ok d <->
  exists_ fs file = true /\
  exists ds sp short smj smn sfx,
    file = root ++ ds ++ [render_basename sp short smj smn sfx] /\
    no_dot (pname root) /\ Forall no_dot ds /\ wf_fields sp short smj smn sfx /\
    d = mkDef file root (join_with dot ((pname root :: ds) ++ [short])) (dec_value smj) (dec_value smn) (option_map dec_value sp).
Proof.
  unfold mk_definition. split.
  - destruct (exists_ fs file); [|discriminate]. destruct (has_dot (pname root)); [discriminate|].
    destruct (strip_prefix root file) as [rel|] eqn:SP; [|discriminate]. apply strip_prefix_some in SP. subst file.
    destruct (parse_rel (pname root) rel) as [x|] eqn:PR; [|discriminate].
    apply parse_rel_spec in PR. destruct PR as (Hrn & [ds sp short smj smn sfx Hds W]).
    intros [= <-]. split; [reflexivity|]. exists ds, sp, short, smj, smn, sfx. auto.
  - intros (E & ds & sp & short & smj & smn & sfx & Ef & Hrn & Hds & W & Ed). subst d file.
    rewrite E, (proj2 (has_dot_false _) Hrn), strip_prefix_app. cbn [negb].
    rewrite (proj2 (parse_rel_spec _ _ _) (conj Hrn (RelShape _ ds sp short smj smn sfx Hds W))). reflexivity.
Qed.

Lemma mk_definition_render fs root ds sp short smj smn sfx :
  let rn := pname root in
  let file := root ++ ds ++ [render_basename sp short smj smn sfx] in
  no_dot rn -> Forall no_dot ds -> wf_fields sp short smj smn sfx -> exists_ fs file = true ->
  mk_definition fs file root =
  Ok (mkDef file root (join_with dot ((rn :: ds) ++ [short])) (dec_value smj) (dec_value smn) (option_map dec_value sp)).
Proof. intros rn file Hrn Hds W E. apply mk_definition_shape. split; [exact E|]. exists ds, sp, short, smj, smn, sfx. auto. Qed.

Lemma mk_definition_fields fs file root d : mk_definition fs file root = Ok d -> d_file d = file /\ d_root d = root.
Proof. intros H. apply mk_definition_shape in H. destruct H as (_ & ? & ? & ? & ? & ? & ? & _ & _ & _ & _ & ->). split; reflexivity. Qed.

Lemma rfind_dot_none s i acc : no_dot s -> rfind_dot s i acc = acc.
Proof.
  revert i acc. induction s as [|c r IH]; intros i acc; [reflexivity|]. intros [E H]%no_dot_cons.
  cbn [rfind_dot]. rewrite E. apply IH, H.
Qed.

Lemma stem_nodot s : no_dot s -> stem s = s.
Proof. intros H. unfold stem. rewrite (rfind_dot_none s 0 None H). reflexivity. Qed.

Lemma search_up_ok l rp rn :
  Forall no_dot l -> no_dot rn ->
  search_up_rev (l ++ rn :: rev rp) (l ++ [rn]) = Some (rp ++ [rn]).
Proof.
  intros Hl Hrn. induction Hl as [|c l' Hc Hl' IH]; cbn [app search_up_rev].
  - rewrite (stem_nodot rn Hrn), list_eqb_refl. cbn [rev]. rewrite rev_involutive. reflexivity.
  - rewrite (stem_nodot c Hc), list_eqb_refl.
    destruct (l' ++ [rn]) eqn:E; [destruct l'; discriminate|exact IH].
Qed.

(* the version test and the port-ID test of composite_init, which has them inline *)
Definition version_ok (mj mn : Z) : bool :=
  (0 <=? mj) && (mj <=? MAX_VERSION_NUMBER) && (0 <=? mn) && (mn <=? MAX_VERSION_NUMBER) && (0 <? mj + mn).
Definition port_ok (port : option Z) (is_service_type : bool) : bool :=
  match port with
  | None => true
  | Some p => (0 <=? p) && (p <=? (if is_service_type then MAX_SERVICE_ID else MAX_SUBJECT_ID))
  end.
Definition name_checks (cs : list str) (mj mn : Z) (port : option Z) (is_service_type : bool) : bool :=
  forallb check_name cs && negb (MAX_NAME_LENGTH <? Z.of_nat (length (join_with dot cs))) && version_ok mj mn && port_ok port is_service_type.

Lemma join_two_has_dot a b r : has_dot (join_with dot (a :: b :: r)) = true.
Proof. apply has_dot_true. rewrite join_cons. apply in_or_app. right. left. reflexivity. Qed.

Lemma join_app_single cs x : cs <> [] -> join_with dot (cs ++ [x]) = join_with dot cs ++ dot :: x.
Proof.
  induction cs as [|a r IH]; intros NE; [congruence|]. destruct r as [|b r']; [reflexivity|].
  cbn [app] in *. rewrite !join_cons, IH, <- app_assoc by discriminate. reflexivity.
Qed.

(* sec is the section word of the request / response of a service, whose namespace is looked up one level higher
   (has_parent_service) *)
Lemma composite_init_shape rp rn ds short (sec : option str) b mj mn port ist :
  let root := rp ++ [rn] in
  let cs := (rn :: ds) ++ short :: match sec with Some w => [w] | None => [] end in
  Forall no_dot cs ->
  composite_init (join_with dot cs) mj mn port (root ++ ds ++ [b]) (if sec then true else false) ist =
  if name_checks cs mj mn port ist then Ok (join_with dot cs, root) else Err RInvalid.
Proof.
  intros root cs Hcs. unfold composite_init, name_checks.
  assert (exists x y r, cs = x :: y :: r) as (x & y & r & Ecs) by (unfold cs; destruct ds; cbn; eauto).
  assert (HD : has_dot (join_with dot cs) = true) by (rewrite Ecs; apply join_two_has_dot).
  destruct (join_with dot cs) as [|c0 nm] eqn:Enm; [discriminate|]. rewrite <- Enm in *. rewrite HD. cbn [negb].
  rewrite split_join by (exact Hcs || (rewrite Ecs; discriminate)). cbv zeta.
  replace (removelast (root ++ ds ++ [b])) with (root ++ ds) by (rewrite app_assoc, removelast_last; reflexivity).
  replace (if if sec then true else false then removelast (removelast cs) else removelast cs) with (rn :: ds).
  2: { unfold cs. destruct sec as [w|]; [change [short; w] with ([short] ++ [w]); rewrite app_assoc|]; rewrite !removelast_last; reflexivity. }
  unfold root at 1. rewrite !rev_app_distr. cbn [rev app].
  apply Forall_app, proj1, Forall_cons_iff in Hcs. destruct Hcs as [Hrn Hds].
  rewrite (search_up_ok (rev ds) rp rn (Forall_rev Hds) Hrn). fold root (version_ok mj mn).
  destruct (MAX_NAME_LENGTH <? _), (forallb check_name cs); try reflexivity.
  destruct (version_ok mj mn); [|reflexivity]. destruct port; reflexivity.
Qed.

(* REQUEST and RESPONSE of Paths.v without their leading dot: the section words as name components *)
Definition W_Request : list Z := [82; 101; 113; 117; 101; 115; 116].
Definition W_Response : list Z := [82; 101; 115; 112; 111; 110; 115; 101].

Definition msg_checks (cs : list (list Z)) (mj mn : Z) (port : option Z) : bool := name_checks cs mj mn port false.
(* 9 = length ".Response", the longer of the two section names that are appended to the name of a service *)
Definition svc_checks (cs : list (list Z)) (mj mn : Z) (port : option Z) : bool :=
  forallb check_name cs && negb (MAX_NAME_LENGTH <? Z.of_nat (length (join_with dot cs)) + 9) && version_ok mj mn && port_ok port true.

(* ServiceType: name = request.full_namespace *)
Lemma section_namespace cs w :
  cs <> [] -> Forall no_dot (cs ++ [w]) -> join_with dot (removelast (split_on dot (join_with dot cs ++ dot :: w))) = join_with dot cs.
Proof.
  intros NE F. rewrite <- join_app_single, split_join, removelast_last by (assumption || (destruct cs; discriminate)). reflexivity.
Qed.

Lemma composite_init_section rp rn ds short w b mj mn :
  let root := rp ++ [rn] in
  let cs := (rn :: ds) ++ [short] in
  Forall no_dot cs -> no_dot w ->
  composite_init (join_with dot cs ++ dot :: w) mj mn None (root ++ ds ++ [b]) true false =
  if name_checks (cs ++ [w]) mj mn None false then Ok (join_with dot cs ++ dot :: w, root) else Err RInvalid.
Proof.
  intros root cs Hcs Hw.
  assert (F : Forall no_dot (cs ++ [w])) by (apply Forall_app; split; [exact Hcs|repeat constructor; exact Hw]).
  rewrite <- join_app_single by discriminate. unfold cs in *. rewrite <- app_assoc in *.
  exact (composite_init_shape rp rn ds short (Some w) b mj mn None false F).
Qed.

Lemma name_checks_section cs w mj mn :
  cs <> [] -> check_name w = true ->
  name_checks (cs ++ [w]) mj mn None false =
  forallb check_name cs && negb (MAX_NAME_LENGTH <? Z.of_nat (length (join_with dot cs)) + Z.of_nat (S (length w))) && version_ok mj mn.
Proof.
  intros NE Hw. unfold name_checks. rewrite forallb_app, join_app_single, app_length, Nat2Z.inj_add by exact NE.
  cbn [forallb length port_ok]. rewrite Hw, !andb_true_r. reflexivity.
Qed.

Lemma no_dot_word w : forallb (fun c => negb (c =? dot)) w = true -> no_dot w.
Proof. intros H I. rewrite forallb_forall in H. specialize (H _ I). rewrite Z.eqb_refl in H. discriminate. Qed.

Definition kind_checks (svc : bool) := if svc then svc_checks else msg_checks.

Lemma composite_of_kind svc rp rn ds short b mj mn port :
  let root := rp ++ [rn] in
  let file := root ++ ds ++ [b] in
  let cs := (rn :: ds) ++ [short] in
  Forall no_dot cs ->
  composite_of svc (mkDef file root (join_with dot cs) mj mn port) =
  if kind_checks svc cs mj mn port then Ok (mkId (join_with dot cs) mj mn port file root) else Err RInvalid.
Proof.
  intros root file cs Hcs. subst cs file root. unfold composite_of. cbn [d_name d_major d_minor d_port d_file]. destruct svc.
  2: { rewrite (composite_init_shape rp rn ds short None b mj mn port false Hcs).
       unfold kind_checks, msg_checks. destruct (name_checks _ _ _ _ _); reflexivity. }
  unfold kind_checks, svc_checks. change REQUEST with (dot :: W_Request). change RESPONSE with (dot :: W_Response).
  rewrite !(composite_init_section rp rn ds short _ b mj mn Hcs) by (apply no_dot_word; reflexivity).
  rewrite !name_checks_section by (discriminate || reflexivity).
  change (Z.of_nat (S (length W_Request))) with 8. change (Z.of_nat (S (length W_Response))) with 9.
  destruct (forallb check_name _) eqn:EC; [|reflexivity].
  destruct (version_ok mj mn) eqn:EV; [|rewrite !andb_false_r; reflexivity].
  destruct (Z.ltb_spec MAX_NAME_LENGTH (Z.of_nat (length (join_with dot ((rn :: ds) ++ [short]))) + 9)) as [L|L].
  - (* too long for the response *) destruct (MAX_NAME_LENGTH <? _ + 8); reflexivity.
  - rewrite (proj2 (Z.ltb_ge _ (_ + 8))) by lia. cbn [andb negb bind fst].
    rewrite section_namespace; [|discriminate|apply Forall_app; split; [exact Hcs|repeat constructor; apply no_dot_word; reflexivity]].
    rewrite (composite_init_shape rp rn ds short None b mj mn port true Hcs). unfold name_checks.
    rewrite EC, EV, (proj2 (Z.ltb_ge _ _)) by lia. destruct (port_ok port true); reflexivity.
Qed.

Lemma composite_sections (rp : list (list Z)) (rn : list Z) (ds : list (list Z)) (short b : list Z) mj mn port :
  let root := rp ++ [rn] in
  let file := root ++ ds ++ [b] in
  let cs := (rn :: ds) ++ [short] in
  Forall no_dot cs ->
  svc_checks cs mj mn port = true ->
  composite_init (join_with dot cs ++ REQUEST) mj mn None file true false = Ok (join_with dot cs ++ REQUEST, root) /\
  composite_init (join_with dot cs ++ RESPONSE) mj mn None file true false = Ok (join_with dot cs ++ RESPONSE, root).
Proof.
  intros root file cs Hcs K. subst cs file root. unfold svc_checks in K.
  apply andb_true_iff, proj1, andb_true_iff in K. destruct K as [K Kv]. apply andb_true_iff in K. destruct K as [Kn Kl].
  apply negb_true_iff, Z.ltb_ge in Kl.
  change REQUEST with (dot :: W_Request). change RESPONSE with (dot :: W_Response).
  rewrite !(composite_init_section rp rn ds short _ b mj mn Hcs) by (apply no_dot_word; reflexivity).
  rewrite !name_checks_section, Kn, Kv by (discriminate || reflexivity).
  change (Z.of_nat (S (length W_Request))) with 8. change (Z.of_nat (S (length W_Response))) with 9.
  rewrite !(proj2 (Z.ltb_ge _ _)) by lia. split; reflexivity.
Qed.

Definition identity_of (fs : fsys) (file root : list (list Z)) : res ident :=
  bind (mk_definition fs file root) (fun d => composite_of (file_is_service fs file) d).

Theorem identity_of_spec fs rp rn file i :
  let root := rp ++ [rn] in
  identity_of fs file root = Ok i <->
  exists_ fs file = true /\
  exists ds sp short smj smn sfx,
    file = root ++ ds ++ [render_basename sp short smj smn sfx] /\
    no_dot rn /\ Forall no_dot ds /\ wf_fields sp short smj smn sfx /\
    kind_checks (file_is_service fs file) ((rn :: ds) ++ [short]) (dec_value smj) (dec_value smn) (option_map dec_value sp) = true /\
    i = mkId (join_with dot ((rn :: ds) ++ [short])) (dec_value smj) (dec_value smn) (option_map dec_value sp) file root.
Proof.
  intros root. unfold identity_of.
  assert (PN : pname root = rn) by apply last_last.
  assert (Hcs : forall ds short, no_dot rn -> Forall no_dot ds -> no_dot short -> Forall no_dot ((rn :: ds) ++ [short])).
  { intros ds short Hrn Hds Hs. apply Forall_app. repeat constructor; assumption. }
  split.
  - intros H. destruct (mk_definition fs file root) as [d|e] eqn:MD; [|discriminate]. cbn [bind] in H.
    apply mk_definition_shape in MD. rewrite PN in MD. destruct MD as (E & ds & sp & short & smj & smn & sfx & Ef & Hrn & Hds & W & Ed).
    split; [exact E|]. exists ds, sp, short, smj, smn, sfx. repeat (split; [assumption|]).
    revert H. generalize (file_is_service fs file) as svc. rewrite Ed, Ef. intros svc.
    rewrite (composite_of_kind _ rp rn ds short) by (apply Hcs; (assumption || apply W)).
    destruct (kind_checks _ _ _ _ _); [|discriminate]. intros [= <-]. split; reflexivity.
  - intros (E & ds & sp & short & smj & smn & sfx & Ef & Hrn & Hds & W & K & Ei). subst i. revert K E.
    generalize (file_is_service fs file) as svc. rewrite Ef. intros svc K E.
    rewrite <- PN in Hrn. rewrite (mk_definition_render fs root ds sp short smj smn sfx Hrn Hds W E), PN. rewrite PN in Hrn. cbn [bind].
    rewrite (composite_of_kind _ rp rn ds short), K by (apply Hcs; (assumption || apply W)). reflexivity.
Qed.

Definition covers (cwd : list (list Z)) (f : list (list Z)) (r : path) : bool := is_prefix (resolve cwd r) f.

Lemma is_prefix_app pre a b : is_prefix (pre ++ a) (pre ++ b) = is_prefix a b.
Proof.
  apply eq_iff_eq_true. rewrite !is_prefix_spec. split; intros (rest & H); exists rest.
  - rewrite <- app_assoc in H. exact (app_inv_head _ _ _ H).
  - rewrite H. apply app_assoc.
Qed.

Lemma relative_to_covers cwd t r :
  is_abs t = is_abs r -> covers cwd (resolve cwd t) r = match relative_to t r with Some _ => true | None => false end.
Proof.
  unfold relative_to, covers, resolve. intros <-. rewrite eqb_reflx.
  destruct (is_abs t); [reflexivity|apply is_prefix_app].
Qed.

Lemma relative_covers cwd t r rest : relative_to t r = Some rest -> covers cwd (resolve cwd t) r = true.
Proof.
  intros H. rewrite relative_to_covers, H; [reflexivity|].
  unfold relative_to in H. destruct (Bool.eqb _ _) eqn:E; [apply eqb_prop, E|discriminate].
Qed.

Lemma strategy2_unique cwd t roots r0 :
  let f := resolve cwd t in
  In r0 roots -> covers cwd f r0 = true ->
  (forall r, In r roots -> covers cwd f r = true -> resolve cwd r = resolve cwd r0) ->
  exists p, strategy2 cwd t (Some f) roots = Some p /\ resolve cwd p = resolve cwd r0.
Proof.
  intros f. induction roots as [|r rest IH]; intros I C0 U; [destruct I|].
  cbn [strategy2]. fold (covers cwd f r). destruct (covers cwd f r) eqn:CR.
  - specialize (U r (or_introl eq_refl) CR). destruct (relative_to t r) eqn:RT; [exists r; auto|].
    (* covered but not relative as pure paths: at least one of the two is absolute *)
    destruct (is_abs r) eqn:Ar, (is_abs t) eqn:At; try (eexists; split; [reflexivity|exact U]).
    unfold f in CR. rewrite relative_to_covers, RT in CR by congruence. discriminate.
  - destruct (relative_to t r) eqn:RT; [apply relative_covers with (cwd := cwd) in RT; fold f in RT; congruence|].
    rewrite andb_false_r. apply IH.
    + destruct I as [->|I]; [congruence|exact I].
    + exact C0.
    + intros r' I'. apply U. right. exact I'.
Qed.

Lemma strategy2_none cwd t o roots :
  (forall r, In r roots -> relative_to t r = None /\ forall f, o = Some f -> covers cwd f r = false) ->
  strategy2 cwd t o roots = None.
Proof.
  induction roots as [|r rest IH]; intros H; [reflexivity|]. cbn [strategy2].
  destruct (H r (or_introl eq_refl)) as [-> C]. specialize (IH (fun r' I => H r' (or_intror I))).
  destruct o as [f|]; [|exact IH]. fold (covers cwd f r). rewrite (C f eq_refl), andb_false_r. exact IH.
Qed.

Lemma strategy2_uncovered cwd t roots :
  (forall r, In r roots -> covers cwd (resolve cwd t) r = false) -> strategy2 cwd t (Some (resolve cwd t)) roots = None.
Proof.
  intros NC. apply strategy2_none. intros r I. split; [|intros f [= <-]; exact (NC r I)].
  destruct (relative_to t r) eqn:RT; [|reflexivity]. apply relative_covers with (cwd := cwd) in RT. rewrite (NC r I) in RT. discriminate.
Qed.

Lemma infer_root_nonempty fs cwd t roots :
  roots <> [] ->
  infer_root fs cwd t roots =
  let resolved := if is_abs t || exists_ fs (resolve cwd t) then Some (resolve cwd t) else None in
  match strategy2 cwd t resolved roots with
  | Some r => Ok r
  | None =>
    match (if is_abs t then None else strategy3 fs cwd t roots) with
    | Some r => Ok r
    | None =>
      match strategy4 (bare_names roots) (is_abs t) [] (removelast (comps t)) with
      | Some r => Ok r
      | None => Err RInvalid
      end
    end
  end.
Proof. destruct roots; [congruence|reflexivity]. Qed.

(* INFERENCE 2: the target lies under exactly one of the roots given as paths *)
Theorem from_first_in_paths fs cwd t roots r0 :
  let f := resolve cwd t in
  (is_abs t = true \/ exists_ fs f = true) ->
  In r0 roots -> covers cwd f r0 = true ->
  (forall r, In r roots -> covers cwd f r = true -> resolve cwd r = resolve cwd r0) ->
  from_first_in fs cwd roots t = mk_definition fs f (resolve cwd r0).
Proof.
  intros f EX I C0 U. subst f. unfold from_first_in. rewrite (infer_root_nonempty fs cwd t roots (in_nonempty _ _ I)).
  assert ((is_abs t || exists_ fs (resolve cwd t)) = true) as RS by (destruct EX as [-> | ->]; [reflexivity|apply orb_true_r]).
  cbv zeta. rewrite RS.
  destruct (strategy2_unique cwd t roots r0 I C0 U) as (p & -> & RP). cbn [bind].
  unfold covers in C0. rewrite RP, C0. cbn [andb]. destruct (exists_ fs (resolve cwd t)); [rewrite orb_true_r; reflexivity|].
  rewrite orb_false_r in *. rewrite RS. reflexivity.
Qed.

(* INFERENCE 1: no roots, a relative target: its first component is the root *)
Theorem from_first_in_no_roots fs cwd c rest :
  exists_ fs (cwd ++ [c]) = true ->
  from_first_in fs cwd [] (P false (c :: rest)) = mk_definition fs (cwd ++ c :: rest) (cwd ++ [c]).
Proof.
  intros E. unfold from_first_in, infer_root. cbn [is_abs comps]. rewrite E. cbn [bind is_abs orb resolve comps parent removelast join app].
  destruct (is_prefix (cwd ++ [c]) (cwd ++ c :: rest) && exists_ fs (cwd ++ c :: rest)); reflexivity.
Qed.

Lemma strategy4_first names a done pre n post :
  str_in n names = true -> (forall x, In x pre -> str_in x names = false) ->
  strategy4 names a done (pre ++ n :: post) = Some (P a (done ++ pre ++ [n])).
Proof.
  intros Hn. revert done. induction pre as [|x pre' IH]; intros done Hpre; cbn [app strategy4].
  - rewrite Hn. reflexivity.
  - rewrite (Hpre x (or_introl eq_refl)), IH, <- app_assoc by (intros y Iy; apply Hpre; right; exact Iy). reflexivity.
Qed.

(* INFERENCE 4, bare root names: the first directory of the target that carries one of the names is the root.  A target
   relative to the working directory must exist, and the walk of INFERENCE 3 must find nothing (the hypothesis that the
   open finding F16 violates). *)
Theorem from_first_in_by_name fs cwd a tc roots pre n post b :
  let t := P a tc in
  let f := resolve cwd t in
  tc = pre ++ n :: post ++ [b] ->
  (a = false -> exists_ fs f = true /\ strategy3 fs cwd t roots = None) ->
  (forall r, In r roots -> covers cwd f r = false) ->
  str_in n (bare_names roots) = true ->
  (forall x, In x pre -> str_in x (bare_names roots) = false) ->
  from_first_in fs cwd roots t = mk_definition fs f (resolve cwd (P a (pre ++ [n]))).
Proof.
  intros t f -> REL NC Hn Hpre. subst f. unfold from_first_in.
  rewrite (infer_root_nonempty fs cwd t roots) by (intros ->; discriminate Hn). cbv zeta.
  assert ((is_abs t || exists_ fs (resolve cwd t)) = true) as ->
    by (destruct a; [reflexivity|apply REL; reflexivity]).
  rewrite (strategy2_uncovered cwd t roots NC).
  replace (if is_abs t then None else strategy3 fs cwd t roots) with (@None path)
    by (destruct a; [reflexivity|symmetry; apply REL; reflexivity]).
  subst t. cbn [comps is_abs]. rewrite removelast_mid, (strategy4_first _ a [] pre n post Hn Hpre).
  cbn [app bind]. destruct a; [reflexivity|]. cbn [orb resolve is_abs comps] in *.
  rewrite is_prefix_app, (proj2 (is_prefix_spec _ _)) by (exists (post ++ [b]); rewrite <- app_assoc; reflexivity).
  rewrite (proj1 (REL eq_refl)). reflexivity.
Qed.

Lemma strategy3_unique fs cwd t roots r0 :
  In r0 roots ->
  walk_up fs cwd t (is_abs r0) (rev (comps r0)) = Some r0 ->
  (forall r p, In r roots -> walk_up fs cwd t (is_abs r) (rev (comps r)) = Some p -> p = r0) ->
  strategy3 fs cwd t roots = Some r0.
Proof.
  induction roots as [|r rest IH]; intros I W U; [destruct I|]. cbn [strategy3].
  destruct (walk_up fs cwd t (is_abs r) (rev (comps r))) as [p|] eqn:E.
  - rewrite (U r p (or_introl eq_refl) E). reflexivity.
  - apply IH.
    + destruct I as [->|I]; [congruence|exact I].
    + exact W.
    + intros r' p I'. apply U. right. exact I'.
Qed.

(* INFERENCE 3: a relative target that begins with the name of a root given as a path and exists below the directory
   that contains that root, not below the working directory *)
Theorem from_first_in_name_relative fs cwd a pre n rest roots :
  let r0 := P a (pre ++ [n]) in
  let t := P false (n :: rest) in
  exists_ fs (cwd ++ n :: rest) = false ->
  exists_ fs (resolve cwd (P a (pre ++ n :: rest))) = true ->
  In r0 roots ->
  (forall r, In r roots -> relative_to t r = None) ->
  (forall r p, In r roots -> walk_up fs cwd t (is_abs r) (rev (comps r)) = Some p -> p = r0) ->
  from_first_in fs cwd roots t = mk_definition fs (resolve cwd (P a (pre ++ n :: rest))) (resolve cwd r0).
Proof.
  intros r0 t NEx Ex I NR U. unfold from_first_in. rewrite (infer_root_nonempty fs cwd t roots (in_nonempty _ _ I)).
  cbv zeta. cbn [is_abs resolve comps t orb]. rewrite NEx.
  rewrite strategy2_none by (intros r Ir; split; [apply NR, Ir|discriminate]).
  assert (J : join (parent r0) t = P a (pre ++ n :: rest)) by (cbn [parent r0]; rewrite removelast_last; reflexivity).
  assert (W0 : walk_up fs cwd t (is_abs r0) (rev (comps r0)) = Some r0).
  { cbn [is_abs comps r0]. rewrite rev_unit. cbn [walk_up rev]. rewrite rev_involutive. fold r0.
    rewrite J, Ex. cbn [t comps hd]. rewrite list_eqb_refl. reflexivity. }
  rewrite (strategy3_unique fs cwd t roots r0 I W0 U). cbn [bind]. rewrite J, andb_false_r. reflexivity.
Qed.

(* the function that dec_value folds over the digits *)
Definition dstep (acc c : Z) : Z := acc * 10 + (c - 48).

(* the digits produced for n, read in front of the accumulator, contribute exactly n; two to the fuel bounds n
   because the fuel of render_dec is the binary length of n *)
Lemma render_value fuel n acc :
  0 <= n < 2 ^ Z.of_nat fuel -> fold_left dstep (render_pos_fuel fuel n acc) 0 = fold_left dstep acc n.
Proof.
  revert n acc. induction fuel as [|f IH]; intros n acc Hn.
  - replace n with 0 by (cbn in Hn; lia). reflexivity.
  - rewrite Nat2Z.inj_succ, Z.pow_succ_r in Hn by lia. cbn [render_pos_fuel].
    assert (E : dstep (n / 10) (48 + n mod 10) = n) by (unfold dstep; rewrite (Z.div_mod n 10) at 3 by lia; ring).
    destruct (Z.ltb_spec n 10) as [L|L].
    + cbn [fold_left]. rewrite <- E at 2. rewrite Z.div_small by lia. reflexivity.
    + rewrite IH by (split; [apply Z.div_pos|apply Z.div_lt_upper_bound]; lia). cbn [fold_left]. rewrite E. reflexivity.
Qed.

Lemma render_digits fuel n acc : 0 <= n -> digits acc -> digits (render_pos_fuel fuel n acc).
Proof.
  revert n acc. induction fuel as [|f IH]; intros n acc Hn Ha; [exact Ha|]. cbn [render_pos_fuel].
  assert (digits ((48 + n mod 10) :: acc)) as Ha'.
  { split; [discriminate|]. intros c [<-|I]; [pose proof (Z.mod_pos_bound n 10); lia|apply Ha, I]. }
  destruct (n <? 10); [exact Ha'|]. apply IH; [apply Z.div_pos; lia|exact Ha'].
Qed.

Theorem parse_render_dec n : 0 <= n -> parse_decimal (render_dec n) = Some n /\ digits (render_dec n).
Proof.
  intros Hn. unfold render_dec.
  assert (D : digits (render_pos_fuel (S (Z.to_nat (Z.log2 n))) n [])).
  { cbn [render_pos_fuel]. pose proof (Z.mod_pos_bound n 10).
    assert (digits [48 + n mod 10]) by (split; [discriminate|]; intros c [<-|[]]; lia).
    destruct (n <? 10); [assumption|]. apply render_digits; [apply Z.div_pos; lia|assumption]. }
  split; [|exact D]. rewrite (parse_decimal_digits _ D). f_equal. apply render_value.
  rewrite Nat2Z.inj_succ, Z2Nat.id by apply Z.log2_nonneg.
  destruct (Z.eq_dec n 0) as [->|NZ]; [cbn; lia|]. pose proof (Z.log2_spec n). lia.
Qed.

Theorem read_files_single fs cwd t r0 :
  let f := resolve cwd t in
  let R := resolve cwd r0 in
  (is_abs t = true \/ exists_ fs f = true) ->
  covers cwd f r0 = true ->
  exists_ fs R = true ->
  (exists ds, definitions_of_namespaces fs [R] = Ok ds) ->          (* no malformed file name below the root *)
  read_files fs cwd [t] [r0] [] = bind (identity_of fs f R) (fun i => Ok [i]).
Proof.
  intros f R EX C ER (ds & DN). unfold read_files. cbn [normalize existsb mapM].
  rewrite (from_first_in_paths fs cwd t [r0] r0 EX (or_introl eq_refl) C) by (intros r [<-|[]] _; reflexivity).
  fold f R. unfold identity_of. destruct (mk_definition fs f R) as [d|e] eqn:MD; [|reflexivity].
  destruct (mk_definition_fields _ _ _ _ MD) as [Df Dr].
  cbn [bind by_file existsb map app filter]. rewrite Dr. fold R. rewrite ER. cbn [app dedup_dirs filter].
  rewrite strs_eqb_refl. unfold lookup_stage, nested. cbn [negb forallb existsb]. rewrite ER, strs_eqb_refl, DN.
  cbn [negb andb orb bind mapM]. rewrite Df. destruct (composite_of (file_is_service fs f) d); reflexivity.
Qed.

Theorem designations_agree fs cwd cwd' t t' r r' :
  resolve cwd t = resolve cwd' t' -> resolve cwd r = resolve cwd' r' ->
  (is_abs t = true \/ exists_ fs (resolve cwd t) = true) ->
  (is_abs t' = true \/ exists_ fs (resolve cwd' t') = true) ->
  covers cwd (resolve cwd t) r = true ->
  exists_ fs (resolve cwd r) = true ->
  (exists ds, definitions_of_namespaces fs [resolve cwd r] = Ok ds) ->
  read_files fs cwd [t] [r] [] = read_files fs cwd' [t'] [r'] [].
Proof.
  intros Et Er EX EX' C E DN. rewrite (read_files_single fs cwd t r EX C E DN).
  unfold covers in C. rewrite Et, Er in *. symmetry. apply (read_files_single fs cwd' t' r' EX' C E DN).
Qed.

Theorem read_namespace_identities fs cwd r ids :
  let R := resolve cwd r in
  read_namespace fs cwd r [] = Ok ids ->
  Forall2 (fun g i => identity_of fs g R = Ok i) (globbed fs R) ids.
Proof.
  intros R. unfold read_namespace. cbn [normalize map app dedup_dirs filter]. fold R.
  destruct (negb (forallb (exists_ fs) [R])) eqn:EX; [discriminate|].
  destruct (nested [R]) eqn:NS; [discriminate|].
  destruct (definitions_of_namespaces fs [R]) as [defs|e] eqn:MD; [|discriminate]. cbn [bind]. intros H.
  (* the lookup stage repeats the checks and the construction, which succeed again *)
  assert (CM : mapM (fun d => composite_of (file_is_service fs (d_file d)) d) defs = Ok ids).
  { destruct defs; [exact H|]. unfold lookup_stage in H. rewrite EX, NS, MD in H. exact H. }
  clear H. unfold definitions_of_namespaces in MD. cbn [flat_map] in MD. rewrite app_nil_r in MD.
  apply mapM_ok, Forall2_map_l in MD. apply mapM_ok in CM. cbn [fst snd] in MD.
  revert ids CM. induction MD as [|g d gs ds Hg _ IH]; intros ids CM; inversion CM; subst; constructor; [|apply IH; assumption].
  unfold identity_of. rewrite Hg. destruct (mk_definition_fields _ _ _ _ Hg) as [<- _]. assumption.
Qed.
