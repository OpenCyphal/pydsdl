(* C10 - read_namespace / read_files on a directory tree: exactly one composite per definition file under the
   root directory (read_namespace), exactly the requested files (read_files); order and duplication of the root
   directory arguments of read_files are irrelevant. *)
From Coq Require Import ZArith List Bool Permutation Sorted.
From PV Require Import Namespace.Reader Namespace.ReaderProofs Namespace.ReadPure Namespace.ReadCache Namespace.SortProofs
                       Namespace.LoopProofs Namespace.Listing Namespace.ListingProofs.
Import ListNotations.
Open Scope Z_scope.

Lemma pairs_fid_nodup : forall files dirs, NoDup (map fid files) -> NoDup dirs ->
  (forall a b, In a dirs -> In b dirs -> a <> b -> is_prefix b a = false) ->
  NoDup (map (fun rf => fid (snd rf)) (pairs_of dirs files)).
Proof.
  intros files dirs NF. induction dirs as [|r ds IH]; intros ND Hn; [constructor|].
  inversion ND as [|? ? Hr ND']; subst.
  unfold pairs_of. simpl. rewrite map_app. apply NoDup_app_iff. split; [|split].
  - rewrite map_map. simpl. apply NoDup_map_filter. assumption.
  - apply IH; [assumption|]. intros a b Ha Hb. apply Hn; right; assumption.
  - intros x Hx Hx'. rewrite map_map in Hx. simpl in Hx. apply in_map_iff in Hx. destruct Hx as [f [E Hf]].
    apply filter_In in Hf. destruct Hf as [Hf Hp]. apply andb_true_iff in Hp. destruct Hp as [_ Hp].
    apply in_map_iff in Hx'. destruct Hx' as [[r' g] [E' Hg]]. simpl in E'.
    apply (pairs_of_In ds files r' g) in Hg. destruct Hg as [Hr' [Hg [_ Hp']]].
    assert (f = g) by (apply (NoDup_map_inj_on fid files); congruence). subst g.
    assert (Hne : r <> r') by (intro; subst; contradiction).
    destruct (prefix_comparable r r' (fdir f) Hp Hp') as [C|C].
    + rewrite (Hn r' r (or_intror Hr') (or_introl eq_refl)) in C; [discriminate|congruence].
    + rewrite (Hn r r' (or_introl eq_refl) (or_intror Hr') Hne) in C. discriminate.
Qed.

(* a successful listing is the sorted list of what the pairs (directory, file) encode *)
Lemma listing_ok : forall dirs files L, listing dirs files = Ok L ->
  L = sort_metas (map (fun rf => mk_meta (fst rf) (snd rf)) (pairs_of dirs files)).
Proof. intros dirs files L H. unfold listing in H. destruct (existsb _ _); [discriminate|]. inversion H. reflexivity. Qed.

Lemma sort_metas_files : forall ps : list (dpath * fent),
  Permutation (map mfile (sort_metas (map (fun rf => mk_meta (fst rf) (snd rf)) ps))) (map (fun rf => fid (snd rf)) ps).
Proof.
  intro ps. rewrite sort_metas_is. eapply Permutation_trans; [apply Permutation_map, isort_perm|].
  rewrite map_map. apply Permutation_refl.
Qed.

Lemma listing_files_unique : forall allow dirs files L, NoDup (map fid files) -> NoDup dirs ->
  dirs_rejected allow dirs = false -> listing dirs files = Ok L -> files_unique L.
Proof.
  intros allow dirs files L NF ND NR H. rewrite (listing_ok _ _ _ H). unfold files_unique.
  apply (Permutation_NoDup (Permutation_sym (sort_metas_files _))). apply pairs_fid_nodup; [assumption|assumption|]. eapply not_rejected_no_nesting. eassumption.
Qed.

Lemma listing_In : forall dirs files L d, listing dirs files = Ok L ->
  (In d L <-> exists r f, In (r, f) (pairs_of dirs files) /\ d = mk_meta r f).
Proof.
  intros dirs files L d H. rewrite (listing_ok _ _ _ H), sort_metas_In, in_map_iff. split.
  - intros [[r f] [E Hd]]. exists r, f. auto.
  - intros [r [f [Hin E]]]. exists (r, f). auto.
Qed.

Lemma listing_member : forall dirs files L r f, listing dirs files = Ok L ->
  In r dirs -> In f files -> globbed f = true -> is_prefix r (fdir f) = true -> In (mk_meta r f) L.
Proof.
  intros dirs files L r f LL Hr Hf Hg Hp. apply (listing_In _ _ _ _ LL). exists r, f. split; [apply pairs_of_In; auto|reflexivity].
Qed.

Section Api.
Variable txt : Z -> list item.
Variable files : list fent.
Hypothesis NF : NoDup (map fid files).

(* C10_complete: read_namespace returns exactly one composite per definition file (.dsdl / .uavcan) under the root
   directory - none missing, none duplicated, none from the lookup directories - each equal to what reading the
   definition on its own yields, sorted *)
Theorem run_namespace_complete : forall root lookups allow out,
  (forall L, listing (dedupe_dirs (lookups ++ [root])) files = Ok L -> strict_unique L) ->
  run_namespace txt files root lookups allow = Ok out ->
  Permutation (map tfile (odirect out)) (map fid (filter (fun f => globbed f && is_prefix root (fdir f)) files)) /\
  StronglySorted (fun a b => rank_lt (tkey a) (tkey b)) (odirect out) /\
  (forall L, listing (dedupe_dirs (lookups ++ [root])) files = Ok L -> forall t, In t (odirect out) -> genuine txt L t).
Proof.
  intros root lookups allow out HSU H. unfold run_namespace in H.
  destruct (dirs_rejected allow (dedupe_dirs (lookups ++ [root]))) eqn:NR; [discriminate|].
  destruct (listing [root] files) as [targets|e] eqn:LT; [|discriminate].
  assert (Htf : Permutation (map mfile targets) (map fid (filter (fun f => globbed f && is_prefix root (fdir f)) files))).
  { rewrite (listing_ok _ _ _ LT). eapply Permutation_trans; [apply sort_metas_files|].
    unfold pairs_of. simpl. rewrite app_nil_r, map_map. apply Permutation_refl. }
  destruct targets as [|t0 ts].
  - inversion H; subst out. simpl. split; [|split; [constructor|intros L _ t []]].
    simpl in Htf. exact Htf.
  - destruct (listing (dedupe_dirs (lookups ++ [root])) files) as [L|e] eqn:LL; [|discriminate].
    pose proof (HSU L eq_refl) as SU.
    pose proof (listing_files_unique allow _ files L NF (dedupe_dirs_NoDup _) NR LL) as FU.
    assert (NT : NoDup (t0 :: ts)).
    { apply (NoDup_map_inv mfile). eapply Permutation_NoDup; [apply Permutation_sym; exact Htf|].
      apply NoDup_map_filter. assumption. }
    assert (HL : forall d, In d (t0 :: ts) -> In d L).
    { intros d Hd. apply (listing_In _ _ _ d LT) in Hd. destruct Hd as [r [f [Hin ->]]].
      apply pairs_of_In in Hin. destruct Hin as [[<-|[]] [Hf [Hg Hp]]].
      apply (listing_member _ _ _ _ _ LL); auto. apply dedupe_dirs_In, in_app_iff. right. left. reflexivity. }
    destruct (complete_read_spec txt L SU FU (t0 :: ts) out NT HL H) as [H1 [H2 [_ [_ [_ [H3 _]]]]]].
    split; [eapply Permutation_trans; eassumption|]. split; [assumption|].
    intros L' E t Ht. inversion E; subst L'. apply H1 in Ht. destruct Ht as [d [Hd Rd]]. exists d. split; [apply HL; assumption|assumption].
Qed.

Lemma targets_of_spec : forall roots ids ps, targets_of files roots ids = Ok ps ->
  map (fun rf => fid (snd rf)) ps = ids /\
  forall r f, In (r, f) ps -> In r roots /\ In f files /\ is_prefix r (fdir f) = true.
Proof.
  intros roots. induction ids as [|i ids IH]; intros ps H; simpl in H.
  - inversion H; subst. split; [reflexivity|intros r f []].
  - destruct (find (fun f => fid f =? i) files) as [f|] eqn:F; [|discriminate].
    destruct (infer_root roots f) as [root|] eqn:IR; [|discriminate].
    destruct (fbad f); [discriminate|].
    destruct (targets_of files roots ids) as [l|e]; [|discriminate]. inversion H; subst ps.
    destruct (IH l eq_refl) as [H1 H2]. apply find_some in F. destruct F as [Ff Fi]. apply Z.eqb_eq in Fi.
    unfold infer_root in IR. apply find_some in IR. destruct IR as [Ir Ip].
    split; [simpl; congruence|]. intros r g [Hg|Hg]; [inversion Hg; subst; auto|apply H2; assumption].
Qed.

Lemma dedupe_files_In : forall l x, In x (dedupe_files l) -> In x l.
Proof.
  induction l as [|y l IH]; simpl; intros x H; [contradiction|].
  destruct H as [H|H]; [auto|]. apply filter_In in H. right. apply IH. tauto.
Qed.

Lemma targets_of_roots_incl : forall roots ids ps, targets_of files roots ids = Ok ps ->
  forall r, In r (map fst (dedupe_files ps)) -> In r roots.
Proof.
  intros roots ids ps T r Hr. apply in_map_iff in Hr. destruct Hr as [[r' f] [E Hr]]. simpl in E. subst r'.
  apply dedupe_files_In in Hr. destruct (targets_of_spec roots ids _ T) as [_ Hs]. apply (Hs r f Hr).
Qed.

Lemma dedupe_files_fids : forall l i, In i (map (fun rf => fid (snd rf)) (dedupe_files l)) <-> In i (map (fun rf => fid (snd rf)) l).
Proof.
  induction l as [|y l IH]; intro i; simpl; [tauto|]. split.
  - intros [H|H]; [auto|]. right. apply IH. apply in_map_iff in H. destruct H as [x [E Hx]]. apply filter_In in Hx.
    apply in_map_iff. exists x. tauto.
  - intros [H|H]; [auto|]. destruct (i =? fid (snd y)) eqn:E; [apply Z.eqb_eq in E; auto|]. right.
    apply IH in H. apply in_map_iff in H. destruct H as [x [E2 Hx]]. apply in_map_iff. exists x. split; [assumption|].
    apply filter_In. split; [assumption|]. rewrite E2, E. reflexivity.
Qed.

Lemma dedupe_files_nodup : forall l, NoDup (map (fun rf => fid (snd rf)) (dedupe_files l)).
Proof.
  induction l as [|y l IH]; simpl; [constructor|]. constructor.
  - intro H. apply in_map_iff in H. destruct H as [x [E Hx]]. apply filter_In in Hx. destruct Hx as [_ Hx].
    rewrite E, Z.eqb_refl in Hx. discriminate.
  - apply NoDup_map_filter. assumption.
Qed.

(* C10_files_api (C10_files on the directory tree): read_files returns the requested files as direct - each once, however often and
   in whatever order it was requested - and the rest of their closure as transitive; disjoint; sorted *)
Theorem run_files_spec : forall ids roots lookups out,
  (forall ps L, targets_of files roots ids = Ok ps ->
     listing (dedupe_dirs (lookups ++ map fst (dedupe_files ps) ++ roots)) files = Ok L -> strict_unique L) ->
  (forall f, In f files -> In (fid f) ids -> globbed f = true) ->           (* the requested files are .dsdl / .uavcan files *)
  run_files txt files ids roots lookups = Ok out ->
  (forall i, In i (map tfile (odirect out)) <-> In i ids) /\
  NoDup (map tfile (odirect out)) /\
  (forall t, In t (otrans out) <-> ~ In t (odirect out) /\ exists t0, In t0 (odirect out) /\ sdesc t t0) /\
  (forall t, In t (odirect out) -> ~ In t (otrans out)) /\
  StronglySorted (fun a b => rank_lt (tkey a) (tkey b)) (odirect out) /\
  StronglySorted (fun a b => rank_lt (tkey a) (tkey b)) (otrans out).
Proof.
  intros ids roots lookups out HSU HG H. unfold run_files in H.
  destruct (targets_of files roots ids) as [ps|e] eqn:TO; [|discriminate].
  destruct (targets_of_spec roots ids ps TO) as [Hids Hps].
  destruct ps as [|p ps].
  - inversion H; subst out. simpl in *. subst ids. repeat split; try constructor; try tauto; try (intros; contradiction).
    intros [_ [t0 [[] _]]].
  - set (ps' := dedupe_files (p :: ps)) in *.
    destruct (dirs_rejected true (dedupe_dirs (lookups ++ map fst ps' ++ roots))) eqn:NR; [discriminate|].
    destruct (listing (dedupe_dirs (lookups ++ map fst ps' ++ roots)) files) as [L|e] eqn:LL; [|discriminate].
    pose proof (HSU _ L eq_refl LL) as SU.
    pose proof (listing_files_unique true _ files L NF (dedupe_dirs_NoDup _) NR LL) as FU.
    set (targets := sort_metas (map (fun rf => mk_meta (fst rf) (snd rf)) ps')) in *.
    pose proof (sort_metas_files ps' : Permutation (map mfile targets) _) as Hmf.
    assert (NT : NoDup targets).
    { apply (NoDup_map_inv mfile). eapply Permutation_NoDup; [apply Permutation_sym; exact Hmf|]. apply dedupe_files_nodup. }
    assert (HL : forall d, In d targets -> In d L).
    { intros d Hd. apply (proj1 (sort_metas_In _ _)), in_map_iff in Hd. destruct Hd as [[r f] [<- Hd]]. simpl.
      pose proof (dedupe_files_In _ _ Hd) as Hd'. destruct (Hps r f Hd') as [Hr [Hf Hp]]. apply (listing_member _ _ _ _ _ LL); auto.
      - apply dedupe_dirs_In, in_app_iff. right. apply in_app_iff. right. assumption.
      - apply HG; [assumption|]. rewrite <- Hids. apply in_map_iff. exists (r, f). auto. }
    destruct (complete_read_spec txt L SU FU targets out NT HL H) as [H1 [H2 [H3 [_ [H4 [H5 H6]]]]]].
    split; [|split; [|split; [|split; [|split]]]]; try assumption.
    + intro i. rewrite <- Hids.
      rewrite <- (dedupe_files_fids (p :: ps) i). fold ps'. split; intro Hi.
      * apply (Permutation_in _ Hmf). apply (Permutation_in _ H2). assumption.
      * apply (Permutation_in _ (Permutation_sym H2)). apply (Permutation_in _ (Permutation_sym Hmf)). assumption.
    + eapply Permutation_NoDup; [apply Permutation_sym; exact H2|].
      eapply Permutation_NoDup; [apply Permutation_sym; exact Hmf|]. apply dedupe_files_nodup.
Qed.

Lemma find_none_set : forall (p : list str -> bool) (r1 r2 : list (list str)), (forall x, In x r1 -> In x r2) -> find p r2 = None -> find p r1 = None.
Proof.
  intros p r1 r2 H F. destruct (find p r1) as [a|] eqn:E; [|reflexivity].
  apply find_some in E. destruct E as [Ha Hp]. pose proof (find_none _ _ F a (H a Ha)). congruence.
Qed.

Lemma infer_root_same : forall r1 r2 f, (forall x, In x r1 <-> In x r2) ->
  (forall a b, In a r1 -> In b r1 -> a <> b -> is_prefix b a = false) ->
  infer_root r1 f = infer_root r2 f.
Proof.
  intros r1 r2 f H NN. unfold infer_root.
  destruct (find (fun r => is_prefix r (fdir f)) r1) as [a|] eqn:E1.
  - destruct (find (fun r => is_prefix r (fdir f)) r2) as [b|] eqn:E2.
    + apply find_some in E1. apply find_some in E2. destruct E1 as [Ha Pa], E2 as [Hb Pb]. apply H in Hb.
      f_equal. destruct (dpath_eqb a b) eqn:E; [apply dpath_eqb_eq; assumption|]. apply dpath_eqb_false in E.
      destruct (prefix_comparable a b (fdir f) Pa Pb) as [C|C].
      * rewrite (NN b a Hb Ha) in C; [discriminate|congruence].
      * rewrite (NN a b Ha Hb E) in C. discriminate.
    + rewrite (find_none_set _ r1 r2 (fun x Hx => proj1 (H x) Hx) E2) in E1. discriminate.
  - symmetry. apply (find_none_set _ r2 r1 (fun x Hx => proj2 (H x) Hx) E1).
Qed.

Lemma infer_root_none_iff : forall r1 r2 f, (forall x, In x r1 <-> In x r2) -> (infer_root r1 f = None <-> infer_root r2 f = None).
Proof.
  intros r1 r2 f H. unfold infer_root. split; intro E.
  - apply (find_none_set _ r2 r1 (fun x Hx => proj2 (H x) Hx) E).
  - apply (find_none_set _ r1 r2 (fun x Hx => proj1 (H x) Hx) E).
Qed.

Lemma targets_of_roots : forall r1 r2 ids, (forall x, In x r1 <-> In x r2) ->
  match targets_of files r1 ids, targets_of files r2 ids with
  | Ok p1, Ok p2 => map snd p1 = map snd p2
  | Err e1, Err e2 => e1 = e2
  | _, _ => False
  end.
Proof.
  intros r1 r2 ids H. induction ids as [|i ids IH]; simpl; [reflexivity|].
  destruct (find (fun f => fid f =? i) files) as [f|]; [|reflexivity].
  pose proof (infer_root_none_iff r1 r2 f H) as HN.
  destruct (infer_root r1 f) as [a|] eqn:E1, (infer_root r2 f) as [b|] eqn:E2; try reflexivity.
  - destruct (fbad f); [reflexivity|].
    destruct (targets_of files r1 ids) as [p1|e1], (targets_of files r2 ids) as [p2|e2]; simpl; try assumption; try contradiction.
    f_equal. assumption.
  - destruct HN as [_ HN]. specialize (HN eq_refl). discriminate.
  - destruct HN as [HN _]. specialize (HN eq_refl). discriminate.
Qed.

Lemma targets_of_same : forall r1 r2 ids, (forall f, In f files -> infer_root r1 f = infer_root r2 f) ->
  targets_of files r1 ids = targets_of files r2 ids.
Proof.
  intros r1 r2 ids H. induction ids as [|i ids IH]; simpl; [reflexivity|].
  destruct (find (fun f => fid f =? i) files) as [f|] eqn:F; [|reflexivity].
  apply find_some in F. rewrite (H f (proj1 F)), IH. reflexivity.
Qed.

Lemma dedupe_files_snd : forall (p1 p2 : list (dpath * fent)), map snd p1 = map snd p2 -> map snd (dedupe_files p1) = map snd (dedupe_files p2).
Proof.
  assert (Hf : forall (x : dpath * fent) (p1 p2 : list (dpath * fent)), map snd p1 = map snd p2 ->
            map snd (filter (fun y => negb (fid (snd y) =? fid (snd x))) p1) = map snd (filter (fun y => negb (fid (snd y) =? fid (snd x))) p2)).
  { intros x. induction p1 as [|a p1 IH]; intros [|b p2] E; simpl in *; try discriminate; [reflexivity|].
    inversion E as [[E1 E2]]. rewrite E1. destruct (negb (fid (snd b) =? fid (snd x))); simpl; [f_equal; [exact E1|]|]; apply IH; assumption. }
  induction p1 as [|a p1 IH]; intros [|b p2] E; simpl in *; try discriminate; [reflexivity|].
  inversion E as [[E1 E2]]. rewrite E1. f_equal.
  apply (Hf b). apply IH. assumption.
Qed.

(* C10_dir_args for the roots of read_files *)
Theorem run_files_root_args : forall ids r1 r2 lookups,
  (forall x, In x r1 <-> In x r2) ->
  (forall ps, targets_of files r1 ids = Ok ps -> ukeys (dedupe_dirs (lookups ++ map fst (dedupe_files ps) ++ r1)) files) ->
  run_files txt files ids r1 lookups = run_files txt files ids r2 lookups.
Proof.
  intros ids r1 r2 lookups H U. unfold run_files.
  pose proof (targets_of_roots r1 r2 ids H) as HT.
  destruct (targets_of files r1 ids) as [p1|e1] eqn:T1, (targets_of files r2 ids) as [p2|e2] eqn:T2; try contradiction; [|congruence].
  destruct p1 as [|a p1], p2 as [|b p2]; simpl in HT; try discriminate; [reflexivity|].
  set (q1 := dedupe_files (a :: p1)). set (q2 := dedupe_files (b :: p2)).
  pose proof (targets_of_roots_incl r1 ids _ T1) as Hin1. pose proof (targets_of_roots_incl r2 ids _ T2) as Hin2.
  assert (Hs : forall x, In x (lookups ++ map fst q1 ++ r1) <-> In x (lookups ++ map fst q2 ++ r2)).
  { intro x. rewrite !in_app_iff. split; intros [Hx|[Hx|Hx]]; auto.
    - right. right. apply H. auto.
    - right. right. apply H. assumption.
    - right. right. apply H. auto.
    - right. right. apply H. assumption. }
  rewrite (dirs_rejected_dedupe_ext true _ _ Hs).
  destruct (dirs_rejected true (dedupe_dirs (lookups ++ map fst q2 ++ r2))) eqn:NR; [reflexivity|].
  (* accepted: no root lies inside another, so every file has the same root under both argument lists *)
  assert (NN : forall a0 b0, In a0 r1 -> In b0 r1 -> a0 <> b0 -> is_prefix b0 a0 = false).
  { intros a0 b0 Ha Hb. apply (not_rejected_no_nesting true _ NR); apply dedupe_dirs_In; apply in_app_iff; right;
      apply in_app_iff; right; apply H; assumption. }
  assert (Hsame : targets_of files r1 ids = targets_of files r2 ids).
  { apply targets_of_same. intros f _. apply infer_root_same; assumption. }
  rewrite T1, T2 in Hsame. inversion Hsame as [[Ea Ep]]. unfold q1, q2 in *. rewrite Ea, Ep in *.
  rewrite (listing_dedupe_ext files _ _ Hs (U _ eq_refl)). reflexivity.
Qed.

End Api.
