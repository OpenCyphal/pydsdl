(* C11 - proofs: the two loops of _namespace.py decide exactly the declarative conformity. *)
From Coq Require Import ZArith List Bool Lia Permutation.
From PV Require Import Util.ListSet Namespace.CrossRules.
Import ListNotations.
Open Scope Z_scope.

Lemma name_eqb_eq a b : name_eqb a b = true <-> name a = name b.
Proof. apply list_eqb_eq. Qed.

Lemma name_eqb_false a b : name_eqb a b = false <-> name a <> name b.
Proof. rewrite <- name_eqb_eq. symmetry. apply not_true_iff_false. Qed.

Lemma opt_eqb_eq p q : opt_eqb p q = true <-> p = q.
Proof.
  destruct p, q; cbn [opt_eqb]; try (split; congruence).
  rewrite Z.eqb_eq. split; congruence.
Qed.

Lemma port_collision_false a b :
  0 <= major a -> 0 <= major b ->
  (port_collision a b = false <->
   (same_kind a b -> forall p, port a = Some p -> port b = Some p ->
    name a = name b /\ (major a = major b \/ major a = 0 \/ major b = 0))).
Proof.
  intros Ha Hb. unfold port_collision, fpid_must_be_different, same_kind. split.
  - intros H SK p Pa Pb. rewrite Pa, Pb, Z.eqb_refl, andb_true_r in H.
    rewrite SK, eqb_reflx, andb_true_l in H.
    apply orb_false_iff in H. destruct H as [H1 H2].
    apply negb_false_iff in H1. apply name_eqb_eq in H1. split; [exact H1|].
    destruct (Z.eqb_spec (major a) (major b)) as [E|_]; [left; exact E|]. right.
    destruct (Z.ltb_spec 0 (major a)) as [L|L]; [|left; lia]. destruct (Z.ltb_spec 0 (major b)) as [L'|L']; [discriminate|right; lia].
  - intros H.
    destruct (port a) as [p|]; [|apply andb_false_r]. destruct (port b) as [q|]; [|apply andb_false_r].
    destruct (Z.eqb_spec p q) as [<-|_]; [|apply andb_false_r]. rewrite andb_true_r.
    destruct (Bool.eqb (is_svc a) (is_svc b)) eqn:SK; [|reflexivity].
    apply eqb_prop in SK. destruct (H SK p eq_refl eq_refl) as [N M].
    apply name_eqb_eq in N. rewrite N. cbn [negb orb andb].
    destruct M as [->|[->| ->]]; [rewrite Z.eqb_refl; reflexivity|apply andb_false_r|rewrite !andb_false_r; reflexivity].
Qed.

Lemma check_ports_pairs ds : check_ports ds = true <-> forall a b, In a ds -> In b ds -> port_collision a b = false.
Proof.
  unfold check_ports. rewrite forallb_forall. split.
  - intros H a b Ia Ib. specialize (H a Ia). rewrite forallb_forall in H. apply negb_true_iff, H, Ib.
  - intros H a Ia. apply forallb_forall. intros b Ib. apply negb_true_iff, H; assumption.
Qed.

Lemma check_ports_spec ds : wf ds -> (check_ports ds = true <-> PortsConform ds).
Proof.
  intros W. rewrite check_ports_pairs. unfold PortsConform.
  split; intros H a b Ia Ib; apply (port_collision_false a b (W a Ia) (W b Ib)), H; assumption.
Qed.

Lemma lay_ok_spec mj x y : lay_ok mj x y = true <-> (1 <= mj -> same_lay x y).
Proof.
  unfold lay_ok, same_lay. destruct (Z.ltb_spec 0 mj) as [L|L].
  - rewrite andb_true_iff, Z.eqb_eq, eqb_true_iff. split; [tauto|intros H; apply H; lia].
  - split; [lia|reflexivity].
Qed.

Lemma port_ok_spec a b : minor a <> minor b -> (port_ok a b = true <-> port_rule a b).
Proof.
  intros NE. unfold port_ok, port_rule, has_port.
  destruct (port a) as [p|] eqn:Pa, (port b) as [q|] eqn:Pb; simpl.
  - rewrite Z.eqb_eq. split; [intros ->; left; reflexivity|].
    intros [H|[[H _]|[H _]]]; congruence.
  - destruct (minor b <? minor a) eqn:E; rewrite ?Pa, ?Pb.
    + apply Z.ltb_lt in E. split; [intros _; right; right; split; [reflexivity|exact E]|reflexivity].
    + apply Z.ltb_ge in E. split; [discriminate|]. intros [H|[[H _]|[_ H]]]; try discriminate; lia.
  - destruct (minor b <? minor a) eqn:E; rewrite ?Pa, ?Pb.
    + apply Z.ltb_lt in E. split; [discriminate|]. intros [H|[[_ H]|[H _]]]; try discriminate; lia.
    + apply Z.ltb_ge in E. split; [intros _; right; left; split; [reflexivity|lia]|reflexivity].
  - split; [intros _; left; reflexivity|reflexivity].
Qed.

Lemma pair_ok_spec a b : minor a <> minor b -> (pair_ok a b = true <-> compatible a b).
Proof.
  intros NE. pose proof (port_ok_spec a b NE) as PO. pose proof lay_ok_spec as LO.
  unfold pair_ok, compatible, same_kind, lays_equal, is_svc.
  destruct (knd a) as [x|q1 r1], (knd b) as [y|q2 r2]; try (split; [discriminate|intros [H _]; discriminate]).
  - split.
    + intros [H1 H2]%andb_true_iff. split; [reflexivity|]. split; [apply PO, H1|apply LO, H2].
    + intros (_ & H1 & H2). apply PO in H1. apply LO in H2. rewrite H1, H2. reflexivity.
  - split.
    + intros [[H1 H2]%andb_true_iff H3]%andb_true_iff. split; [reflexivity|]. split; [apply PO, H1|]. split; apply (LO (major a)); assumption.
    + intros (_ & H1 & H2). apply PO in H1. rewrite H1, (proj2 (LO _ _ _)), (proj2 (LO _ _ _)) by (intros; apply H2; assumption). reflexivity.
Qed.

Lemma enum_from_in {A} (l : list A) k i x :
  In (i, x) (enum_from k l) <-> exists j, i = (k + j)%nat /\ nth_error l j = Some x.
Proof.
  revert k. induction l as [|y r IH]; intros k; cbn [enum_from In].
  - split; [intros []|intros ([|j] & _ & H); discriminate].
  - rewrite IH. split.
    + intros [[= <- <-]|(j & -> & H)]; [exists 0%nat|exists (S j)]; split; (lia || assumption || reflexivity).
    + intros ([|j] & -> & H); [left; injection H as ->; f_equal; lia|right; exists j; split; [lia|exact H]].
Qed.

Lemma enum_in {A} (l : list A) i x : In (i, x) (enum l) <-> nth_error l i = Some x.
Proof. unfold enum. rewrite enum_from_in. split; [intros (j & -> & H); exact H|intros H; exists i; auto]. Qed.

Section KeysFacts.
Context {K : Type} (eqb : K -> K -> bool) (eqb_eq : forall a b, eqb a b = true <-> a = b).

Lemma keys_in l k : In k (keys eqb l) <-> In k l.
Proof.
  induction l as [|x r IH]; simpl; [tauto|].
  rewrite filter_In, IH. split.
  - intros [H|[H _]]; auto.
  - intros [H|H]; auto. destruct (eqb x k) eqn:E.
    + apply eqb_eq in E. auto.
    + right. split; [exact H|reflexivity].
Qed.

Lemma keys_nodup l : NoDup (keys eqb l).
Proof.
  induction l as [|x r IH]; simpl; [constructor|]. constructor.
  - rewrite filter_In. intros [_ H]. apply negb_true_iff in H.
    assert (eqb x x = true) by (apply eqb_eq; reflexivity). congruence.
  - apply NoDup_filter. exact IH.
Qed.
End KeysFacts.

Definition pair_fine (ta tb : tagged) : Prop :=
  fst ta <> fst tb -> minor (snd ta) <> minor (snd tb) /\ pair_ok (snd ta) (snd tb) = true.

Lemma group_ok_spec g : group_ok g = true <-> forall ta tb, In ta g -> In tb g -> pair_fine ta tb.
Proof.
  unfold group_ok, pair_fine. rewrite forallb_forall. split.
  - intros H ta tb Ia Ib D. specialize (H ta Ia). rewrite forallb_forall in H. specialize (H tb Ib).
    destruct (Nat.eqb_spec (fst ta) (fst tb)) as [E|_]; [contradiction|].
    destruct (Z.eqb_spec (minor (snd ta)) (minor (snd tb))) as [_|NE]; [discriminate|]. split; [exact NE|exact H].
  - intros H ta Ia. apply forallb_forall. intros tb Ib. specialize (H ta tb Ia Ib).
    destruct (Nat.eqb_spec (fst ta) (fst tb)) as [_|D]; [reflexivity|]. destruct (H D) as [NE ->].
    destruct (Z.eqb_spec (minor (snd ta)) (minor (snd tb))); [contradiction|reflexivity].
Qed.

Lemma check_minor_tagged ds :
  check_minor ds = true <->
  forall ta tb, In ta (enum ds) -> In tb (enum ds) ->
  name (snd ta) = name (snd tb) -> major (snd ta) = major (snd tb) -> pair_fine ta tb.
Proof.
  unfold check_minor. rewrite forallb_forall. split.
  - intros H ta tb Ia Ib N M.
    specialize (H (name (snd ta))). cbv zeta in H. rewrite forallb_forall in H.
    set (defs := filter _ (enum ds)) in H.
    assert (Da : In ta defs) by (apply filter_In; split; [exact Ia|apply list_eqb_eq; reflexivity]).
    assert (Db : In tb defs) by (apply filter_In; split; [exact Ib|apply list_eqb_eq; symmetry; exact N]).
    specialize (H (proj2 (keys_in list_eqb list_eqb_eq _ _) (in_map _ _ _ Ia)) (major (snd ta))
                  (proj2 (keys_in Z.eqb Z.eqb_eq _ _) (in_map _ _ _ Da))).
    rewrite group_ok_spec in H. apply H; apply filter_In; split; (assumption || apply Z.eqb_eq; auto).
  - intros H n _. cbv zeta. apply forallb_forall. intros mj _. apply group_ok_spec.
    intros ta tb Ia Ib. apply filter_In in Ia, Ib. destruct Ia as [Ia Ma], Ib as [Ib Mb].
    apply filter_In in Ia, Ib. destruct Ia as [Ia Na], Ib as [Ib Nb].
    apply list_eqb_eq in Na, Nb. apply Z.eqb_eq in Ma, Mb. apply H; (assumption || congruence).
Qed.

Lemma check_minor_positions ds :
  check_minor ds = true <->
  forall a b, two_of ds a b -> same_series a b -> minor a <> minor b /\ pair_ok a b = true.
Proof.
  rewrite check_minor_tagged. unfold two_of, same_series, pair_fine. split.
  - intros H a b (i & j & D & Na & Nb) [N M].
    apply (H (i, a) (j, b)); simpl; auto; apply enum_in; assumption.
  - intros H [i a] [j b] Ia Ib N M D. simpl in *. apply enum_in in Ia, Ib.
    apply H; [exists i, j; auto|split; assumption].
Qed.

Lemma two_of_in ds a b : two_of ds a b -> In a ds /\ In b ds.
Proof. intros (i & j & _ & A & B). split; eapply nth_error_In; eassumption. Qed.

Lemma in_two_of ds a b : In a ds -> In b ds -> a <> b -> two_of ds a b.
Proof.
  intros A B D. apply In_nth_error in A, B. destruct A as [i A], B as [j B]. exists i, j.
  split; [|split; assumption]. intros ->. congruence.
Qed.

Lemma check_minor_spec ds : check_minor ds = true <-> VersionsUnique ds /\ MinorsConform ds.
Proof.
  rewrite check_minor_positions. unfold VersionsUnique, MinorsConform. split.
  - intros H. split.
    + intros a b T S. apply (H a b T S).
    + intros a b Ia Ib S NE. apply pair_ok_spec; [exact NE|].
      apply H; [|exact S]. apply in_two_of; auto. intros ->. apply NE. reflexivity.
  - intros [U C] a b T S. pose proof (U a b T S) as NE. split; [exact NE|].
    apply pair_ok_spec; [exact NE|]. destruct (two_of_in _ _ _ T). apply C; auto.
Qed.

Lemma check_minor_spec_unique ds : VersionsUnique ds -> (check_minor ds = true <-> MinorsConform ds).
Proof. intros U. rewrite check_minor_spec. tauto. Qed.

Lemma accept_spec direct transitive :
  wf direct -> (accept direct transitive = true <-> Conforming direct (transitive ++ direct)).
Proof.
  intros W. unfold accept, Conforming. rewrite andb_true_iff, (check_ports_spec direct W), check_minor_spec. tauto.
Qed.

Lemma run_spec direct transitive :
  wf direct -> (run direct transitive = Accept <-> Conforming direct (transitive ++ direct)).
Proof.
  intros W. rewrite <- (accept_spec direct transitive W). unfold run.
  destruct (accept direct transitive); split; congruence.
Qed.

(* a permutation maps positions to positions injectively *)
Lemma two_of_perm ds ds' a b : Permutation ds ds' -> two_of ds a b -> two_of ds' a b.
Proof.
  intros Pm (i & j & D & A & B). apply Permutation_sym, Permutation_nth_error in Pm. destruct Pm as (_ & f & Inj & F).
  exists (f i), (f j). rewrite <- !F. split; [intros E; apply D, Inj, E|split; assumption].
Qed.

Lemma perm_invariant {A} (f : list A -> bool) :
  (forall l l', Permutation l l' -> f l = true -> f l' = true) -> forall l l', Permutation l l' -> f l = f l'.
Proof. intros H l l' Pm. apply eq_iff_eq_true. split; apply H; [exact Pm|apply Permutation_sym, Pm]. Qed.

Lemma check_minor_perm ds ds' : Permutation ds ds' -> check_minor ds = check_minor ds'.
Proof.
  apply perm_invariant. clear. intros l l' Pm. apply Permutation_sym in Pm.
  rewrite !check_minor_spec. unfold VersionsUnique, MinorsConform. intros [U C]. split.
  - intros a b T. apply U, (two_of_perm l' l), T. exact Pm.
  - intros a b Ia Ib. apply C; apply (Permutation_in _ Pm); assumption.
Qed.

Lemma check_ports_perm ds ds' : Permutation ds ds' -> check_ports ds = check_ports ds'.
Proof.
  apply perm_invariant. clear. intros l l' Pm. apply Permutation_sym in Pm.
  rewrite !check_ports_pairs. intros H a b Ia Ib. apply H; apply (Permutation_in _ Pm); assumption.
Qed.

Lemma run_perm d d' t t' : Permutation d d' -> Permutation t t' -> run d t = run d' t'.
Proof.
  intros Pd Pt. unfold run, accept.
  rewrite (check_ports_perm d d' Pd), (check_minor_perm (t ++ d) (t' ++ d') (Permutation_app Pt Pd)). reflexivity.
Qed.

(* accept, unfolded: the port check reads `direct` only, the minor-version check reads transitive ++ direct *)
Lemma accept_transitive_ports_ignored d t :
  accept d t = check_ports d && check_minor (t ++ d).
Proof. reflexivity. Qed.
