(* C10 - the loop of _read_definitions and what _complete_read_function returns: direct = the requested
   definitions, transitive = the rest of their dependency closure, disjoint and duplicate free, every type equal to
   what reading the definition on its own yields.  Hypotheses: no two lookups are equal up to letter case with the
   same version (this excludes F7 and the duplicates of F5b) and every lookup has its own file. *)
From Coq Require Import ZArith List Bool Permutation Sorted.
From PV Require Import Namespace.Reader Namespace.ReaderProofs Namespace.ReadPure Namespace.ReadCache Namespace.SortProofs.
Import ListNotations.
Open Scope Z_scope.

Definition strict_unique (L : list meta) : Prop :=
  forall a b, In a L -> In b L -> lower (mname a) = lower (mname b) -> mmaj a = mmaj b -> mmin a = mmin b -> a = b.

(* that is: case_unique, and no two lookups with the same name and version *)
Lemma strict_unique_keys : forall L, case_unique L -> NoDup (map mkey L) -> strict_unique L.
Proof.
  intros L CU N a b Ha Hb Hl Hj Hn. apply (NoDup_map_inj_on mkey L a b N Ha Hb).
  unfold mkey. rewrite (CU a b Ha Hb Hl Hj Hn), Hj, Hn. reflexivity.
Qed.

Fixpoint keys_distinctb (l : list meta) : bool :=
  match l with [] => true | a :: r => negb (existsb (key_eqb a) r) && keys_distinctb r end.

Lemma keys_distinctb_ok : forall l, keys_distinctb l = true -> NoDup (map mkey l).
Proof.
  induction l as [|a r IH]; simpl; intro H; [constructor|]. apply andb_true_iff in H. destruct H as [H1 H2].
  constructor; [|exact (IH H2)]. intro Hin. apply in_map_iff in Hin. destruct Hin as [y [E Hy]].
  apply negb_true_iff in H1. assert (existsb (key_eqb a) r = true); [|congruence].
  apply existsb_exists. exists y. split; [assumption|]. apply key_eqb_eq. symmetry. assumption.
Qed.

Lemma pool_get_cons_eq : forall f o p, pool_get f ((f, o) :: p) = Some o.
Proof. intros. simpl. rewrite Z.eqb_refl. reflexivity. Qed.

Lemma ceq_refl : forall t, ceq t t = true.
Proof. intro t. unfold ceq. rewrite str_eqb_refl, !Z.eqb_refl. reflexivity. Qed.

Lemma ceq_key : forall a b, ceq a b = true -> tkey a = tkey b.
Proof.
  intros a b H. unfold ceq in H. apply andb_true_iff in H. destruct H as [H _].
  apply andb_true_iff in H. destruct H as [H H3]. apply andb_true_iff in H. destruct H as [H1 H2].
  apply str_eqb_eq in H1. apply Z.eqb_eq in H2, H3. unfold tkey. congruence.
Qed.

Section Loop.
Variable txt : Z -> list item.
Variable L : list meta.
Hypothesis SU : strict_unique L.
Hypothesis FU : files_unique L.

Lemma strict_unique_case_unique : case_unique L.
Proof. intros a b Ha Hb H1 H2 H3. rewrite (SU a b Ha Hb H1 H2 H3). reflexivity. Qed.

Lemma key_inj : forall a b, In a L -> In b L -> mkey a = mkey b -> a = b.
Proof. intros a b Ha Hb H. inversion H. apply SU; try assumption. congruence. Qed.

(* a composite is genuine when it is what reading some lookup on its own yields *)
Definition genuine (t : ctree) : Prop := exists d, In d L /\ read_top txt d L = Ok t.

Lemma gen_key_eq : forall t1 t2, genuine t1 -> genuine t2 -> tkey t1 = tkey t2 -> t1 = t2.
Proof.
  intros t1 t2 [d1 [H1 R1]] [d2 [H2 R2]] E.
  destruct (read_top_key _ _ _ _ R1) as [K1 _]. destruct (read_top_key _ _ _ _ R2) as [K2 _].
  assert (d1 = d2) by (apply key_inj; congruence). subst. congruence.
Qed.

Lemma gen_file_eq : forall t1 t2, genuine t1 -> genuine t2 -> tfile t1 = tfile t2 -> t1 = t2.
Proof.
  intros t1 t2 [d1 [H1 R1]] [d2 [H2 R2]] E.
  destruct (read_top_key _ _ _ _ R1) as [_ K1]. destruct (read_top_key _ _ _ _ R2) as [_ K2].
  assert (d1 = d2) by (apply (file_inj L); congruence). subst. congruence.
Qed.

Lemma gen_read : forall d t, In d L -> genuine t -> tfile t = mfile d -> read_top txt d L = Ok t.
Proof.
  intros d t Hd [d0 [Hd0 R0]] E. destruct (read_top_key _ _ _ _ R0) as [_ F0].
  rewrite (file_inj L d d0 FU Hd Hd0); [assumption|congruence].
Qed.

Lemma gen_desc : forall t t', genuine t -> sdesc t' t -> genuine t'.
Proof.
  intros t t' [d [Hd R]] Hs. destruct (read_standalone txt L strict_unique_case_unique d t R t' Hs) as [d' [H1 [_ [_ H2]]]]. exists d'. auto.
Qed.

Lemma cinv_genuine : forall c o t, cinv txt L c -> cache_get o c = Some t -> genuine t /\ tfile t = snd o.
Proof.
  intros c [tk f] t Hc H. destruct (Hc tk f t H) as [d [Hd [Hf R]]]. split; [exists d; auto|].
  simpl. rewrite <- Hf. apply (read_top_key _ _ _ _ R).
Qed.

(* on genuine composites the set operations of the loop are those of lists without duplicates *)
Lemma cmem_gen : forall t s, genuine t -> (forall x, In x s -> genuine x) -> (cmem t s = true <-> In t s).
Proof.
  intros t s Ht Hs. unfold cmem. rewrite existsb_exists. split.
  - intros [x [Hx E]]. rewrite (gen_key_eq t x Ht (Hs x Hx) (ceq_key _ _ E)). assumption.
  - intro H. exists t. split; [assumption|apply ceq_refl].
Qed.

Lemma cmem_gen_false : forall t s, genuine t -> (forall x, In x s -> genuine x) -> ~ In t s -> cmem t s = false.
Proof.
  intros t s Ht Hs Hn. destruct (cmem t s) eqn:E; [|reflexivity]. apply (cmem_gen t s Ht Hs) in E. contradiction.
Qed.

Lemma cadd_gen : forall t s, genuine t -> (forall x, In x s -> genuine x) -> ~ In t s -> cadd t s = s ++ [t].
Proof. intros t s Ht Hs Hn. unfold cadd. rewrite cmem_gen_false; auto. Qed.

Lemma cremove_gen : forall t s x, genuine t -> (forall y, In y s -> genuine y) -> (In x (cremove t s) <-> In x s /\ x <> t).
Proof.
  intros t s x Ht Hs. unfold cremove. rewrite filter_In. split.
  - intros [H1 H2]. split; [assumption|]. intro E. subst. rewrite ceq_refl in H2. discriminate.
  - intros [H1 H2]. split; [assumption|]. apply negb_true_iff. destruct (ceq t x) eqn:E; [|reflexivity].
    exfalso. apply H2. symmetry. apply gen_key_eq; auto. apply ceq_key. assumption.
Qed.

Lemma cremove_notin : forall t s, genuine t -> (forall y, In y s -> genuine y) -> ~ In t s -> cremove t s = s.
Proof.
  intros t s Ht Hs Hn. apply filter_all_true. intros y Hy. apply negb_true_iff. destruct (ceq t y) eqn:E; [|reflexivity].
  exfalso. apply Hn. rewrite (gen_key_eq t y Ht (Hs y Hy) (ceq_key _ _ E)). assumption.
Qed.

Lemma cremove_perm : forall t s, genuine t -> (forall y, In y s -> genuine y) -> NoDup s -> In t s ->
  Permutation s (t :: cremove t s).
Proof.
  intros t s Ht Hs N Hin. apply NoDup_Permutation; [assumption| |].
  - constructor; [rewrite (cremove_gen t s t Ht Hs); tauto|apply NoDup_filter; assumption].
  - intro y. simpl. rewrite (cremove_gen t s y Ht Hs). split.
    + intro Hy. destruct (ceq t y) eqn:E.
      * left. apply gen_key_eq; auto. apply ceq_key. assumption.
      * right. split; [assumption|]. intro; subst. rewrite ceq_refl in E. discriminate.
    + intros [E|[Hy _]]; [subst; assumption|assumption].
Qed.

(* the composites held (direct and transitive together): genuine, pairwise different, and the file pool knows
   exactly their files *)
Record sinv (p : pool) (s : list ctree) : Prop := {
  s_gen : forall t, In t s -> genuine t;
  s_nodup : NoDup s;
  s_dom : forall f, pool_get f p <> None <-> exists t, In t s /\ tfile t = f
}.

Lemma sinv_perm : forall p s s', sinv p s -> Permutation s s' -> sinv p s'.
Proof.
  intros p s s' [G N D] Pm. constructor.
  - intros t Ht. apply G. apply (Permutation_in _ (Permutation_sym Pm)). assumption.
  - apply (Permutation_NoDup Pm N).
  - intro f. rewrite D. split; intros [t [Ht E]]; exists t; (split; [|assumption]).
    + apply (Permutation_in _ Pm Ht).
    + apply (Permutation_in _ (Permutation_sym Pm) Ht).
Qed.

Lemma sinv_fresh : forall p s t, sinv p s -> pool_get (tfile t) p = None -> ~ In t s.
Proof. intros p s t [_ _ D] E Hin. apply (proj2 (D (tfile t))); [exists t; auto|assumption]. Qed.

Lemma sinv_add : forall p s t o, sinv p s -> genuine t -> pool_get (tfile t) p = None -> sinv ((tfile t, o) :: p) (t :: s).
Proof.
  intros p s t o I Ht E. pose proof (sinv_fresh p s t I E) as Hn. destruct I as [G N D]. constructor.
  - intros y [Hy|Hy]; [subst; assumption|apply G; assumption].
  - constructor; assumption.
  - intro f. simpl. destruct (Z.eqb_spec f (tfile t)) as [Ef|Ef].
    + split; [intros _; exists t; auto|discriminate].
    + rewrite D. split; intros [y [Hy Ey]]; exists y.
      * auto.
      * destruct Hy as [Hy|Hy]; [subst; congruence|auto].
Qed.

(* direct holds exactly what reading the targets done so far (P) yields *)
Record dinv (P : list meta) (D : list ctree) : Prop := {
  d_P : forall p, In p P -> In p L /\ exists t, read_top txt p L = Ok t;
  d_direct : forall t, In t D <-> exists d, In d P /\ read_top txt d L = Ok t
}.

Lemma dinv_snoc : forall P D d t, dinv P D -> In d L -> read_top txt d L = Ok t -> dinv (P ++ [d]) (D ++ [t]).
Proof.
  intros P D d t [HP HD] Hd R. constructor.
  - intros p Hp. apply in_snoc in Hp. destruct Hp as [Hp|Hp]; [auto|subst; eauto].
  - intro t'. rewrite in_snoc, HD. split.
    + intros [[d' [H1 H2]]|E]; [exists d'|subst; exists d]; rewrite in_snoc; auto.
    + intros [d' [H1 H2]]. apply in_snoc in H1. destruct H1 as [H1|H1]; [left; exists d'; auto|right; subst; congruence].
Qed.

Definition sets (st : rstate) : list ctree := rdirect st ++ rtrans st.

(* xs = the pending definitions that are still to be absorbed (empty between two targets): read a moment ago as
   dependencies of the last target, hence cached as lookup objects, their files not yet in the pool *)
Record jinv (P xs : list meta) (st : rstate) : Prop := {
  j_cinv : cinv txt L (rcache st);
  j_kids : kidsinv (rcache st);
  j_sets : sinv (rpool st) (sets st);
  j_dinv : dinv P (rdirect st);
  j_trans : forall t, In t (rtrans st) -> exists t0, In t0 (rdirect st) /\ sdesc t t0;
  j_pool : forall f o, pool_get f (rpool st) = Some o -> snd o = f /\ cached o (rcache st);
  j_cache : forall o, cached o (rcache st) -> pool_get (snd o) (rpool st) <> None \/ exists x, In x xs /\ mfile x = snd o;
  j_fresh : forall x, In x xs -> pool_get (mfile x) (rpool st) = None;
  j_pnodup : NoDup (map mfile xs);
  j_pend : forall x, In x xs ->
    exists t0 tx, In t0 (rdirect st) /\ sdesc tx t0 /\ cache_get (false, mfile x) (rcache st) = Some tx
}.

Definition inv (P : list meta) (st : rstate) : Prop := jinv P [] st.

Lemma inv0 : inv [] st0.
Proof.
  constructor; simpl.
  - apply cinv_nil.
  - apply kidsinv_nil.
  - constructor; [intros t []|constructor|]. intro f. split; [intro H; exfalso; apply H; reflexivity|intros [t [[] _]]].
  - constructor; [intros p []|]. intro t. split; [intros []|intros [d [[] _]]].
  - intros t [].
  - intros f o H. discriminate.
  - intros o H. exfalso. apply H. reflexivity.
  - intros x [].
  - constructor.
  - intros x [].
Qed.

Lemma pool_tree : forall P xs st f o, jinv P xs st -> pool_get f (rpool st) = Some o ->
  exists t, cache_get o (rcache st) = Some t /\ In t (sets st) /\ tfile t = f.
Proof.
  intros P xs st f o J PG. destruct (j_pool _ _ _ J f o PG) as [Ho Hc].
  destruct (cache_get o (rcache st)) as [t|] eqn:G; [|exfalso; apply Hc; exact G].
  destruct (cinv_genuine _ _ _ (j_cinv _ _ _ J) G) as [Hg Hf]. rewrite Ho in Hf.
  destruct (proj1 (s_dom _ _ (j_sets _ _ _ J) f)) as [t' [Hin E]]; [rewrite PG; discriminate|].
  exists t. split; [reflexivity|]. split; [|assumption].
  rewrite (gen_file_eq t t' Hg (s_gen _ _ (j_sets _ _ _ J) t' Hin)); [assumption|congruence].
Qed.

(* one pending definition is absorbed: its file is new to the pool, so its composite is new to the sets and becomes
   a transitive dependency (the other branches of `absorb` are not taken) *)
Lemma absorb_step : forall P x xs st, jinv P (x :: xs) st -> exists st', absorb st x = Ok st' /\ jinv P xs st'.
Proof.
  intros P x xs st J. unfold absorb, pool_setdefault.
  pose proof (j_fresh _ _ _ J x (or_introl eq_refl)) as Hfresh. rewrite Hfresh.
  destruct (j_pend _ _ _ J x (or_introl eq_refl)) as [t0 [tx [Ht0 [Hd G]]]]. rewrite G.
  pose proof (j_sets _ _ _ J) as I.
  destruct (cinv_genuine _ _ _ (j_cinv _ _ _ J) G) as [Hgx Hfx]. simpl in Hfx.
  assert (Hnin : ~ In tx (sets st)) by (apply (sinv_fresh _ _ _ I); rewrite Hfx; exact Hfresh).
  assert (M1 : cmem tx (rdirect st) = false).
  { apply cmem_gen_false; [assumption| |intro; apply Hnin, in_or_app; auto]. intros y Hy. apply (s_gen _ _ I), in_or_app. auto. }
  assert (M2 : cmem tx (rtrans st) = false).
  { apply cmem_gen_false; [assumption| |intro; apply Hnin, in_or_app; auto]. intros y Hy. apply (s_gen _ _ I), in_or_app. auto. }
  rewrite M1, M2. simpl. unfold cadd. rewrite M2.
  eexists. split; [reflexivity|].
  pose proof (j_pnodup _ _ _ J) as Hnd. simpl in Hnd. inversion Hnd as [|? ? Hnx Hnd']; subst.
  constructor; simpl.
  - exact (j_cinv _ _ _ J).
  - exact (j_kids _ _ _ J).
  - unfold sets. simpl. rewrite app_assoc. apply (sinv_perm _ (tx :: sets st)); [|apply Permutation_cons_append].
    rewrite <- Hfx. apply sinv_add; [exact I|exact Hgx|rewrite Hfx; exact Hfresh].
  - exact (j_dinv _ _ _ J).
  - intros t Ht. apply in_snoc in Ht. destruct Ht as [Ht|Ht]; [apply (j_trans _ _ _ J); assumption|subst; exists t0; auto].
  - intros f o Ho. destruct (Z.eqb_spec f (mfile x)) as [E|E]; [|apply (j_pool _ _ _ J); assumption].
    inversion Ho; subst. split; [reflexivity|]. unfold cached. rewrite G. discriminate.
  - intros o Ho. destruct (Z.eqb_spec (snd o) (mfile x)) as [E|E]; [left; discriminate|].
    destruct (j_cache _ _ _ J o Ho) as [H1|[y [[Hy|Hy] Hf]]]; [left; assumption|subst; congruence|right; exists y; auto].
  - intros y Hy. destruct (Z.eqb_spec (mfile y) (mfile x)) as [E|E]; [|apply (j_fresh _ _ _ J); right; assumption].
    exfalso. apply Hnx. rewrite <- E. apply in_map. assumption.
  - exact Hnd'.
  - intros y Hy. apply (j_pend _ _ _ J y (or_intror Hy)).
Qed.

Lemma absorb_all_total : forall P xs st, jinv P xs st -> exists st', absorb_all st xs = Ok st' /\ inv P st'.
Proof.
  intros P. induction xs as [|x xs IH]; intros st J; simpl; [eauto|].
  destruct (absorb_step P x xs st J) as [st1 [A J1]]. rewrite A. apply IH. assumption.
Qed.

Lemma dedupe_key_In : forall l x, In x (dedupe_key l) -> In x l.
Proof.
  induction l as [|y l IH]; simpl; intros x H; [contradiction|].
  destruct H as [H|H]; [auto|]. apply filter_In in H. right. apply IH. tauto.
Qed.

Lemma dedupe_key_complete : forall l x, (forall y, In y l -> In y L) -> In x l -> In x (dedupe_key l).
Proof.
  induction l as [|y l IH]; simpl; intros x HL H; [contradiction|].
  destruct H as [H|H]; [auto|].
  destruct (key_eqb x y) eqn:E.
  - left. apply key_eqb_eq in E. symmetry. apply key_inj; auto.
  - right. apply filter_In. split; [apply IH; auto|]. rewrite E. reflexivity.
Qed.

Lemma dedupe_key_nodup : forall l, NoDup (dedupe_key l).
Proof.
  induction l as [|y l IH]; simpl; [constructor|]. constructor.
  - intro H. apply filter_In in H. destruct H as [_ H]. rewrite key_eqb_refl in H. discriminate.
  - apply NoDup_filter. assumption.
Qed.

Lemma deps_of_In : forall ev x, In x (deps_of ev) <-> In (EvDep x) ev.
Proof.
  induction ev as [|e ev IH]; intro x; simpl; [tauto|].
  destruct e as [f|f l|y]; simpl; rewrite IH; split; intro H; try (right; assumption); try (destruct H as [H|H]; [discriminate|assumption]).
  - destruct H as [H|H]; [left; congruence|right; assumption].
  - destruct H as [H|H]; [left; congruence|right; assumption].
Qed.

(* the pending list of a read: the dependencies whose file the pool does not know yet, each file once *)
Lemma pending_spec : forall p ev, (forall y, In (EvDep y) ev -> In y L) ->
  (forall x, In x (sort_metas (pending_of p ev)) <-> In (EvDep x) ev /\ pool_get (mfile x) p = None) /\
  NoDup (map mfile (sort_metas (pending_of p ev))).
Proof.
  intros p ev HL.
  assert (Hxs : forall x, In x (sort_metas (pending_of p ev)) <-> In (EvDep x) ev /\ pool_get (mfile x) p = None).
  { intro x. rewrite sort_metas_In. unfold pending_of. split.
    - intro Hx. apply dedupe_key_In, filter_In in Hx. destruct Hx as [H1 H2]. apply deps_of_In in H1.
      split; [assumption|]. destruct (pool_get (mfile x) p); [discriminate|reflexivity].
    - intros [H1 H2]. apply dedupe_key_complete.
      + intros y Hy. apply filter_In in Hy. destruct Hy as [Hy _]. apply deps_of_In in Hy. exact (HL y Hy).
      + apply filter_In. split; [apply deps_of_In; assumption|]. rewrite H2. reflexivity. }
  split; [exact Hxs|]. apply NoDup_map_inj.
  - intros a b Ha Hb. apply (file_inj L _ _ FU); apply HL, Hxs; assumption.
  - apply (Permutation_NoDup (Permutation_sym (isort_perm _ _))), dedupe_key_nodup.
Qed.

(* the target is read (its file was not known before): state before the pending definitions are absorbed *)
Lemma read_target_jinv : forall P st d t c1 ev dl op,
  inv P st -> In d L -> pool_get (mfile d) (rpool st) = None ->
  readS txt (S (length L)) true d L (rcache st) = Ok (t, c1, ev) ->
  jinv (P ++ [d]) (sort_metas (pending_of ((mfile d, (true, mfile d)) :: rpool st) ev))
       (mkSt c1 ((mfile d, (true, mfile d)) :: rpool st) (cadd t (rdirect st)) (cremove t (rtrans st)) dl op).
Proof.
  intros P st d t c1 ev dl op J Hd PG R.
  rewrite <- (fk_all L) in R at 2.
  destruct (readS_sound txt L strict_unique_case_unique FU _ _ _ _ _ _ _ _ Hd (j_cinv _ _ _ J) R) as [Hrt Hc1].
  pose proof (readS_effect txt L strict_unique_case_unique FU _ _ _ _ _ _ _ _ (j_cinv _ _ _ J) (j_kids _ _ _ J) R) as F.
  pose proof (j_sets _ _ _ J) as I.
  assert (Hgt : genuine t) by (exists d; auto).
  destruct (read_top_key _ _ _ _ Hrt) as [_ Hft].
  assert (Hnin : ~ In t (sets st)) by (apply (sinv_fresh _ _ _ I); rewrite Hft; exact PG).
  assert (Hgd : forall y, In y (rdirect st) -> genuine y) by (intros y Hy; apply (s_gen _ _ I), in_or_app; auto).
  assert (Hgr : forall y, In y (rtrans st) -> genuine y) by (intros y Hy; apply (s_gen _ _ I), in_or_app; auto).
  rewrite (cadd_gen t (rdirect st) Hgt Hgd) by (intro; apply Hnin, in_or_app; auto).
  rewrite (cremove_notin t (rtrans st) Hgt Hgr) by (intro; apply Hnin, in_or_app; auto).
  set (p1 := (mfile d, (true, mfile d)) :: rpool st).
  destruct (pending_spec p1 ev (fun y Hy => proj1 (f_deps _ _ _ _ _ _ _ F y Hy))) as [Hxs Hnd].
  constructor.
  - exact Hc1.
  - exact (f_kids _ _ _ _ _ _ _ F).
  - unfold sets. simpl. apply (sinv_perm _ (t :: sets st)); [|rewrite <- app_assoc; apply Permutation_middle].
    unfold p1. rewrite <- Hft. apply sinv_add; [exact I|exact Hgt|rewrite Hft; exact PG].
  - apply dinv_snoc; [exact (j_dinv _ _ _ J)|exact Hd|exact Hrt].
  - intros y Hy. destruct (j_trans _ _ _ J y Hy) as [t0 [H1 H2]]. exists t0. split; [apply in_snoc; auto|assumption].
  - intros f o Ho. unfold p1 in Ho. simpl in Ho. destruct (Z.eqb_spec f (mfile d)) as [E|E].
    + inversion Ho; subst. split; [reflexivity|exact (f_self _ _ _ _ _ _ _ F)].
    + destruct (j_pool _ _ _ J f o Ho) as [H1 H2]. split; [assumption|]. apply (f_mono _ _ _ _ _ _ _ F). assumption.
  - intros o Ho. cbn [rcache rpool] in Ho |- *. destruct (pool_get (snd o) p1) eqn:PGo; [left; discriminate|]. right.
    unfold p1 in PGo. simpl in PGo. destruct (Z.eqb_spec (snd o) (mfile d)) as [E|E]; [discriminate|].
    destruct (f_new _ _ _ _ _ _ _ F o Ho) as [H1|[H1|[x [Hx H1]]]].
    + destruct (j_cache _ _ _ J o H1) as [H2|[x [[] _]]]. contradiction.
    + subst o. contradiction.
    + subst o. exists x. split; [|reflexivity]. apply Hxs. split; [assumption|]. unfold p1. simpl.
      destruct (Z.eqb_spec (mfile x) (mfile d)); [contradiction|exact PGo].
  - intros x Hx. apply Hxs in Hx. tauto.
  - exact Hnd.
  - intros x Hx. apply Hxs in Hx. destruct Hx as [Hx _].
    destruct (f_deps _ _ _ _ _ _ _ F x Hx) as [_ [Hc [tx [H1 H2]]]].
    unfold cached in Hc. destruct (cache_get (false, mfile x) c1) as [tx'|] eqn:G; [|contradiction].
    destruct (cinv_genuine _ _ _ Hc1 G) as [Hg' Hf']. simpl in Hf'.
    exists t, tx'. split; [apply in_snoc; auto|]. split; [|exact G].
    rewrite (gen_file_eq tx' tx Hg' (gen_desc _ _ Hgt H1)); [assumption|congruence].
Qed.

(* One iteration at level 0, for a target not seen before.  If its file is in the pool it was pulled in as a
   dependency of an earlier target and is promoted from transitive to direct; otherwise it is read and what it
   depends on is absorbed.  The only way to fail is that reading the target fails. *)
Lemma step0_total : forall P st d, inv P st -> In d L -> ~ In d P ->
  match step0 txt L st d with
  | Ok st' => inv (P ++ [d]) st'
  | Err e => readS txt (S (length L)) true d L (rcache st) = Err e
  end.
Proof.
  intros P st d J Hd HnP. unfold step0, pool_setdefault.
  pose proof (j_sets _ _ _ J) as I.
  assert (Hgd : forall y, In y (rdirect st) -> genuine y) by (intros y Hy; apply (s_gen _ _ I), in_or_app; auto).
  assert (Hgr : forall y, In y (rtrans st) -> genuine y) by (intros y Hy; apply (s_gen _ _ I), in_or_app; auto).
  destruct (pool_get (mfile d) (rpool st)) as [o|] eqn:PG.
  - destruct (pool_tree _ _ _ _ _ J PG) as [t [G [Hin Hft]]]. rewrite G.
    assert (Hgt : genuine t) by (apply (s_gen _ _ I); assumption).
    pose proof (gen_read d t Hd Hgt Hft) as Hrt.
    assert (Hnd : ~ In t (rdirect st)).
    { intro Hdi. apply (d_direct _ _ (j_dinv _ _ _ J)) in Hdi. destruct Hdi as [d' [Hd' R']].
      apply HnP. rewrite (key_inj d d'); [assumption|assumption|apply (d_P _ _ (j_dinv _ _ _ J)); assumption|].
      destruct (read_top_key _ _ _ _ R') as [K1 _]. destruct (read_top_key _ _ _ _ Hrt) as [K2 _]. congruence. }
    assert (Hit : In t (rtrans st)) by (apply in_app_or in Hin; tauto).
    assert (M : cmem t (rtrans st) = true) by (apply cmem_gen; assumption).
    rewrite M, orb_true_r. cbn beta iota. rewrite M, (cadd_gen t (rdirect st) Hgt Hgd Hnd).
    constructor; simpl.
    + exact (j_cinv _ _ _ J).
    + exact (j_kids _ _ _ J).
    + unfold sets. simpl. apply (sinv_perm _ _ _ I). rewrite <- app_assoc. apply Permutation_app_head.
      apply cremove_perm; [assumption|assumption|exact (NoDup_app_r _ _ (s_nodup _ _ I))|assumption].
    + apply dinv_snoc; [exact (j_dinv _ _ _ J)|exact Hd|exact Hrt].
    + intros y Hy. apply (cremove_gen t _ y Hgt Hgr) in Hy. destruct Hy as [Hy _].
      destruct (j_trans _ _ _ J y Hy) as [t0 [H1 H2]]. exists t0. split; [apply in_snoc; auto|assumption].
    + exact (j_pool _ _ _ J).
    + exact (j_cache _ _ _ J).
    + intros x [].
    + constructor.
    + intros x [].
  - assert (G : cache_get (true, mfile d) (rcache st) = None).
    { destruct (cache_get (true, mfile d) (rcache st)) eqn:G; [|reflexivity]. exfalso.
      destruct (j_cache _ _ _ J (true, mfile d)) as [H|[x [[] _]]]; [unfold cached; rewrite G; discriminate|]. exact (H PG). }
    rewrite G. simpl fst.
    destruct (readS txt (S (length L)) true d L (rcache st)) as [[[t c1] ev]|e] eqn:R; [|reflexivity].
    destruct (absorb_all_total _ _ _ (read_target_jinv P st d t c1 ev (rdeliv st ++ prints_of (mfile d) ev) (ropened st ++ opened_of ev) J Hd PG R)) as [st' [E J']].
    unfold okey. rewrite E. exact J'.
Qed.

Lemma run_targets_total : forall ts P st, inv P st -> NoDup (P ++ ts) -> (forall d, In d ts -> In d L) ->
  match run_targets txt L st ts with
  | Ok st' => inv (P ++ ts) st'
  | Err e => exists d c, In d ts /\ cinv txt L c /\ readS txt (S (length L)) true d L c = Err e
  end.
Proof.
  induction ts as [|d ts IH]; intros P st J N HL; simpl.
  - rewrite app_nil_r. assumption.
  - assert (HnP : ~ In d P).
    { apply NoDup_app_iff in N. destruct N as [_ [_ N3]]. intro Hp. apply (N3 d Hp). left. reflexivity. }
    pose proof (step0_total P st d J (HL d (or_introl eq_refl)) HnP) as S0.
    destruct (step0 txt L st d) as [st1|e].
    + specialize (IH (P ++ [d]) st1 S0). rewrite <- app_assoc in IH.
      specialize (IH N (fun x Hx => HL x (or_intror Hx))).
      destruct (run_targets txt L st1 ts) as [st'|e]; [assumption|].
      destruct IH as [d' [c [H1 H2]]]. exists d', c. split; [right; assumption|assumption].
    + exists d, (rcache st). split; [left; reflexivity|]. split; [exact (j_cinv _ _ _ J)|exact S0].
Qed.

(* every kid of a held composite is cached as a lookup object (j_kids), hence its file is in the pool (j_cache, nothing
   pending), hence it is held *)
Lemma inv_closed : forall P st, inv P st -> forall t t', In t (sets st) -> sdesc t' t -> In t' (sets st).
Proof.
  intros P st J. pose proof (j_sets _ _ _ J) as I.
  assert (Hk : forall t k, In t (sets st) -> In k (tkids t) -> In k (sets st)).
  { intros t k Ht Hk.
    destruct (pool_get (tfile t) (rpool st)) as [o|] eqn:PG; [|exact (False_ind _ (sinv_fresh _ _ _ I PG Ht))].
    destruct (pool_tree _ _ _ _ _ J PG) as [t1 [G [H1 F1]]].
    assert (t1 = t) by (apply gen_file_eq; [apply (s_gen _ _ I); assumption|apply (s_gen _ _ I); assumption|assumption]). subst t1.
    destruct (j_cache _ _ _ J _ (j_kids _ _ _ J o t G k Hk)) as [Hp|[x [[] _]]]. simpl in Hp.
    destruct (pool_get (tfile k) (rpool st)) as [ok|] eqn:PGk; [|contradiction].
    destruct (pool_tree _ _ _ _ _ J PGk) as [k1 [_ [H2 F2]]].
    rewrite <- (gen_file_eq k1 k); [assumption|apply (s_gen _ _ I); assumption| |assumption].
    apply (gen_desc t); [apply (s_gen _ _ I); assumption|apply sd_kid; assumption]. }
  intros t t' Ht Hs. induction Hs as [t k Hkk|t k t' Hkk Hs IH].
  - eapply Hk; eassumption.
  - apply IH. eapply Hk; eassumption.
Qed.

(* what the loop leaves in the two sets when it has run over all targets *)
Record loop_spec (targets : list meta) (st : rstate) : Prop := {
  ls_read : forall d, In d targets -> exists t, read_top txt d L = Ok t /\ In t (rdirect st);
  ls_direct : forall t, In t (rdirect st) <-> exists d, In d targets /\ read_top txt d L = Ok t;
  ls_trans : forall t, In t (rtrans st) <-> ~ In t (rdirect st) /\ exists t0, In t0 (rdirect st) /\ sdesc t t0;
  ls_nodup : NoDup (rdirect st ++ rtrans st);
  ls_keys : NoDup (map tkey (rdirect st ++ rtrans st));
  ls_files : NoDup (map tfile (rdirect st ++ rtrans st));
  ls_gen : forall t, In t (rdirect st ++ rtrans st) -> genuine t
}.

Theorem run_targets_spec : forall targets st,
  NoDup targets -> (forall d, In d targets -> In d L) ->
  run_targets txt L st0 targets = Ok st -> loop_spec targets st.
Proof.
  intros targets st N HL H.
  pose proof (run_targets_total targets [] st0 inv0 N HL) as J. rewrite H in J. simpl in J.
  destruct (j_sets _ _ _ J) as [Hg ND _]. destruct (j_dinv _ _ _ J) as [HP HD]. unfold sets in *.
  constructor.
  - intros d Hd. destruct (HP d Hd) as [_ [t Ht]]. exists t. split; [assumption|]. apply HD. exists d. auto.
  - exact HD.
  - intro t. split.
    + intro Ht. split; [|apply (j_trans _ _ _ J); assumption].
      apply NoDup_app_iff in ND. destruct ND as [_ [_ N3]]. intro Hd. exact (N3 t Hd Ht).
    + intros [Hn [t0 [H0 Hs]]].
      assert (Hin : In t (sets st)) by (apply (inv_closed targets st J t0 t); [apply in_or_app; auto|assumption]).
      apply in_app_or in Hin. destruct Hin; [contradiction|assumption].
  - exact ND.
  - apply NoDup_map_inj; [|exact ND]. intros a b Ha Hb E. apply gen_key_eq; auto.
  - apply NoDup_map_inj; [|exact ND]. intros a b Ha Hb E. apply gen_file_eq; auto.
  - exact Hg.
Qed.

Lemma sort_trees_strict : forall l, NoDup (map tkey l) -> StronglySorted (fun a b => rank_lt (tkey a) (tkey b)) (sort_trees l).
Proof.
  intros l N. rewrite sort_trees_is. apply sorted_strict; [apply isort_sorted|].
  eapply Permutation_NoDup; [|exact N]. apply Permutation_map. apply Permutation_sym, isort_perm.
Qed.

Theorem complete_read_spec : forall targets out,
  NoDup targets -> (forall d, In d targets -> In d L) ->
  complete_read txt targets L = Ok out ->
  (* direct = exactly the requested definitions, one composite each, equal to what reading it alone yields *)
  (forall t, In t (odirect out) <-> exists d, In d targets /\ read_top txt d L = Ok t) /\
  Permutation (map tfile (odirect out)) (map mfile targets) /\
  (* transitive = exactly the rest of the dependency closure *)
  (forall t, In t (otrans out) <-> ~ In t (odirect out) /\ exists t0, In t0 (odirect out) /\ sdesc t t0) /\
  (forall t, In t (otrans out) -> genuine t) /\
  (* disjoint, and each sorted by name, then newest major, then newest minor *)
  (forall t, In t (odirect out) -> ~ In t (otrans out)) /\
  StronglySorted (fun a b => rank_lt (tkey a) (tkey b)) (odirect out) /\
  StronglySorted (fun a b => rank_lt (tkey a) (tkey b)) (otrans out).
Proof.
  intros targets out N HL H. unfold complete_read in H.
  destruct (run_targets txt L st0 targets) as [st|e] eqn:R; [|discriminate].
  destruct (ports_ok _ && minors_ok _); [|discriminate]. inversion H; subst out. simpl. clear H.
  destruct (run_targets_spec targets st N HL R) as [H0 H1 H2 H3 H4 H5 H6].
  split; [|split; [|split; [|split; [|split; [|split]]]]].
  - intro t. rewrite sort_trees_In. apply H1.
  - apply NoDup_Permutation.
    + rewrite sort_trees_is. eapply Permutation_NoDup; [apply Permutation_map, Permutation_sym, isort_perm|].
      rewrite map_app in H5. eapply NoDup_app_l. exact H5.
    + apply NoDup_map_inj; [|exact N]. intros a b Ha Hb E. apply (file_inj L); auto.
    + intro f. rewrite !in_map_iff. split.
      * intros [t [E Ht]]. apply (proj1 (sort_trees_In _ _)), H1 in Ht. destruct Ht as [d [Hd Rd]].
        exists d. split; [|assumption]. destruct (read_top_key _ _ _ _ Rd) as [_ F]. congruence.
      * intros [d [E Hd]]. destruct (H0 d Hd) as [t [Rd Ht]]. exists t. split; [|apply sort_trees_In; assumption].
        destruct (read_top_key _ _ _ _ Rd) as [_ F]. congruence.
  - intro t. rewrite sort_trees_In, H2. split; intros [Hn [t0 [Ht0 Hs]]].
    + split; [rewrite sort_trees_In; assumption|]. exists t0. split; [apply sort_trees_In; assumption|assumption].
    + split; [rewrite sort_trees_In in Hn; assumption|]. exists t0. split; [apply (proj1 (sort_trees_In _ _)) in Ht0; assumption|assumption].
  - intros t Ht. apply (proj1 (sort_trees_In _ _)) in Ht. apply H6. apply in_app_iff. auto.
  - intros t Hd Ht. apply (proj1 (sort_trees_In _ _)) in Hd. apply (proj1 (sort_trees_In _ _)), H2 in Ht. tauto.
  - apply sort_trees_strict. rewrite map_app in H4. eapply NoDup_app_l. exact H4.
  - apply sort_trees_strict. rewrite map_app in H4. eapply NoDup_app_r. exact H4.
Qed.

(* the loop fails exactly when some requested definition cannot be read on its own *)
Theorem run_targets_ok_iff : forall targets,
  NoDup targets -> (forall d, In d targets -> In d L) ->
  ((exists st, run_targets txt L st0 targets = Ok st) <-> forall d, In d targets -> exists t, read_top txt d L = Ok t).
Proof.
  intros targets N HL. split.
  - intros [st H] d Hd. destruct (ls_read _ _ (run_targets_spec targets st N HL H) d Hd) as [t [Ht _]]. eauto.
  - intro Hok. pose proof (run_targets_total targets [] st0 inv0 N HL) as J.
    destruct (run_targets txt L st0 targets) as [st|e]; [eauto|]. exfalso.
    destruct J as [d [c [Hd [Hc R]]]]. destruct (Hok d Hd) as [t Ht].
    destruct (readS_top_complete txt L strict_unique_case_unique FU true d c t (HL d Hd) Hc Ht) as [c' [ev Hs]]. congruence.
Qed.

(* the order of the targets is irrelevant for what is returned (it only shows in the order of handler calls) *)
Theorem complete_read_target_order : forall T1 T2,
  Permutation T1 T2 -> NoDup T1 -> (forall d, In d T1 -> In d L) ->
  match complete_read txt T1 L, complete_read txt T2 L with
  | Ok o1, Ok o2 => odirect o1 = odirect o2 /\ otrans o1 = otrans o2
  | Err _, Err _ => True
  | _, _ => False
  end.
Proof.
  intros T1 T2 P N1 HL1.
  assert (N2 : NoDup T2) by (eapply Permutation_NoDup; eassumption).
  assert (HL2 : forall d, In d T2 -> In d L) by (intros d Hd; apply HL1; eapply Permutation_in; [apply Permutation_sym; exact P|exact Hd]).
  assert (Hex : (exists st, run_targets txt L st0 T1 = Ok st) <-> (exists st, run_targets txt L st0 T2 = Ok st)).
  { rewrite (run_targets_ok_iff T1 N1 HL1), (run_targets_ok_iff T2 N2 HL2).
    split; intros Hok d Hd; apply Hok; [exact (Permutation_in _ (Permutation_sym P) Hd)|exact (Permutation_in _ P Hd)]. }
  unfold complete_read.
  destruct (run_targets txt L st0 T1) as [st1|e1] eqn:R1, (run_targets txt L st0 T2) as [st2|e2] eqn:R2.
  - pose proof (run_targets_spec T1 st1 N1 HL1 R1) as S1. pose proof (run_targets_spec T2 st2 N2 HL2 R2) as S2.
    pose proof (ls_nodup _ _ S1) as A3. pose proof (ls_nodup _ _ S2) as B3. pose proof (ls_keys _ _ S1) as A4.
    assert (Hd : forall t, In t (rdirect st1) <-> In t (rdirect st2)).
    { intro t. rewrite (ls_direct _ _ S1), (ls_direct _ _ S2). split; intros [d [Hd Hr]]; exists d; (split; [|assumption]).
      - eapply Permutation_in; eassumption.
      - eapply Permutation_in; [apply Permutation_sym; exact P|assumption]. }
    assert (Ht : forall t, In t (rtrans st1) <-> In t (rtrans st2)).
    { intro t. rewrite (ls_trans _ _ S1), (ls_trans _ _ S2). split; intros [Hn [t0 [H0 Hs]]];
        (split; [intro Hi; apply Hn, Hd, Hi|exists t0; split; [apply Hd, H0|exact Hs]]). }
    assert (Ed : sort_trees (rdirect st1) = sort_trees (rdirect st2)).
    { rewrite sort_trees_is. apply isort_perm_eq.
      - apply NoDup_Permutation; [eapply NoDup_app_l; exact A3|eapply NoDup_app_l; exact B3|exact Hd].
      - rewrite map_app in A4. eapply NoDup_app_l. exact A4. }
    assert (Et : sort_trees (rtrans st1) = sort_trees (rtrans st2)).
    { rewrite sort_trees_is. apply isort_perm_eq.
      - apply NoDup_Permutation; [eapply NoDup_app_r; exact A3|eapply NoDup_app_r; exact B3|exact Ht].
      - rewrite map_app in A4. eapply NoDup_app_r. exact A4. }
    rewrite Ed, Et.
    destruct (ports_ok _ && minors_ok _); simpl; auto.
  - destruct (proj1 Hex (ex_intro _ st1 eq_refl)) as [st H]. discriminate.
  - destruct (proj2 Hex (ex_intro _ st2 eq_refl)) as [st H]. discriminate.
  - exact I.
Qed.

(* the model never takes the branch that stands for "a pending definition is not cached": the loop only fails
   with an error of the reader *)
Theorem complete_read_never_unreachable : forall targets,
  NoDup targets -> (forall d, In d targets -> In d L) -> complete_read txt targets L <> Err EUnreachable.
Proof.
  intros targets N HL. unfold complete_read.
  pose proof (run_targets_total targets [] st0 inv0 N HL) as J.
  destruct (run_targets txt L st0 targets) as [st|e]; [destruct (ports_ok _ && minors_ok _); discriminate|].
  intro E. inversion E; subst e. destruct J as [d [c [_ [_ R]]]].
  apply readS_err in R. simpl in R. intuition discriminate.
Qed.
End Loop.

(* C10_sorted without any hypothesis: both lists are sorted by the rank (ties possible only for equal keys) *)
Theorem complete_read_sorted : forall txt targets L out, complete_read txt targets L = Ok out ->
  StronglySorted (fun a b => rleb (tkey a) (tkey b) = true) (odirect out) /\
  StronglySorted (fun a b => rleb (tkey a) (tkey b) = true) (otrans out).
Proof.
  intros txt targets L out H. unfold complete_read in H.
  destruct (run_targets txt L st0 targets) as [st|e]; [|discriminate].
  destruct (ports_ok _ && minors_ok _); [|discriminate]. inversion H; subst out. simpl.
  rewrite sort_trees_is. split; apply (isort_sorted tkey).
Qed.
