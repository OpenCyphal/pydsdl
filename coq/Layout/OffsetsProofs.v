(* The offset trees of iterate_fields_with_offsets / enumerate_elements_with_offsets / `_offset_` denote the positions at which
   the Specification lets a field or element start (C08). *)
From Coq Require Import ZArith List Bool Lia.
From PV Require Import Util.Sumset BLS.Model BLS.Den
  Layout.Types Layout.Spec Layout.Proofs Layout.ProofsSpec Layout.Offsets.
Import ListNotations.
Open Scope Z_scope.

(* positions at which a field / element can start; B is the set of base offsets, first padded to the composite's alignment (8) *)
Definition StructOff (fs : list field) (B : Z -> Prop) (i : nat) (x : Z) : Prop :=
  exists f b e, nth_error fs i = Some f /\ B b /\
    thread_ok LenSpec spec_align (firstn i fs) (pad 8 b) e /\ x = pad (spec_align (snd f)) e.
Definition UnionOff (fs : list field) (B : Z -> Prop) (x : Z) : Prop :=
  exists b, B b /\ x = pad 8 b + spec_tag (Z.of_nat (length fs)).
Definition ElemOff (e : ty) (B : Z -> Prop) (i : Z) (x : Z) : Prop :=
  exists b ys, B b /\ Z.of_nat (length ys) = i /\ Forall (LenSpec e) ys /\ x = pad (spec_align e) b + zsum ys.

Lemma sof_fst acc fs : map fst (struct_offsets_from acc fs) = fs.
Proof. revert acc. induction fs as [|f r IH]; intros acc; cbn [struct_offsets_from map]; [reflexivity|]. rewrite IH. reflexivity. Qed.

(* the offset of field i is the aggregate of the fields before it, aligned for field i *)
Lemma sof_nth fs : forall acc i f O, nth_error (struct_offsets_from acc fs) i = Some (f, O) ->
  nth_error fs i = Some f /\ O = Pad (struct_agg_from bls align acc (firstn i fs)) (align (snd f)).
Proof.
  induction fs as [|g r IH]; intros acc [|j] f O Hn; cbn [struct_offsets_from nth_error firstn struct_agg_from] in *; try discriminate.
  - inversion Hn; subst. split; reflexivity.
  - apply IH. exact Hn.
Qed.

Lemma Forall_firstn {A} (P : A -> Prop) n l : Forall P l -> Forall P (firstn n l).
Proof. intros H. revert n. induction H; intros [|n]; simpl; constructor; auto. Qed.

Theorem struct_offsets_spec nm fs B : wft (TStruct nm fs) = true ->
  map fst (field_offsets (TStruct nm fs) B) = fs /\
  forall i f O, nth_error (field_offsets (TStruct nm fs) B) i = Some (f, O) -> forall x, Den O x <-> StructOff fs (Den B) i x.
Proof.
  cbn [wft field_offsets]. intros W. apply fields_wft in W. split; [apply sof_fst|].
  intros i f O Hn x. apply sof_nth in Hn. destruct Hn as [Hnth ->].
  assert (wft (snd f) = true) as Wf by (rewrite Forall_forall in W; apply W; eapply nth_error_In; exact Hnth).
  pose proof (Den_struct_from _ (Forall_firstn _ i _ (fields_spec_wft fs W))) as HS.
  rewrite Den_pad, max_align_fields, (align_is_spec _ Wf). unfold StructOff. split.
  - intros (e & De & ->). apply HS in De. destruct De as (off & (b & Db & ->) & T). exists f, b, e. auto.
  - intros (f' & b & e & Hf' & Db & T & ->). assert (f' = f) by (unfold field in *; congruence). subst f'.
    exists e. split; [|reflexivity]. apply HS. exists (pad 8 b). split; [exists b; auto|exact T].
Qed.

Theorem union_offsets_spec nm fs B : wft (TUnion nm fs) = true ->
  map fst (field_offsets (TUnion nm fs) B) = fs /\
  forall f O, In (f, O) (field_offsets (TUnion nm fs) B) -> forall x, Den O x <-> UnionOff fs (Den B) x.
Proof.
  cbn [wft field_offsets]. intros W. split.
  - rewrite map_map. simpl. apply map_id.
  - intros f O Hin x. apply in_map_iff in Hin. destruct Hin as (f' & E & _). inversion E; subst. clear E.
    rewrite union_tag_eq by lia. rewrite max_align_fields, Den_cat_leaf. unfold UnionOff. split.
    + intros (y & (b & Db & ->) & ->). eauto.
    + intros (b & Db & ->). exists (pad 8 b). split; [exists b; auto|reflexivity].
Qed.

Theorem delim_offsets_spec i ext B : wft (TDelim i ext) = true ->
  field_offsets (TDelim i ext) B = field_offsets i (Cat [B; Leaf [32]]) /\
  forall x, Den (Cat [B; Leaf [32]]) x <-> exists b, Den B b /\ x = b + 32.
Proof.
  intros W. apply extent_rules in W. destruct W as (_ & (nm & fs & [-> | ->]) & _);
    cbn [field_offsets align]; rewrite max_align_fields; (split; [reflexivity|]); intros x; apply Den_cat_leaf.
Qed.

Theorem elem_offsets_spec e n B : wft (TFix e n) = true ->
  map fst (elem_offsets (TFix e n) B) = map Z.of_nat (seq 0 (Z.to_nat n)) /\
  forall i O, In (i, O) (elem_offsets (TFix e n) B) -> 0 <= i < n /\ forall x, Den O x <-> ElemOff e (Den B) i x.
Proof.
  cbn [wft elem_offsets]. intros W. apply andb_true_iff in W. destruct W as [We _]. split; [rewrite map_map; reflexivity|].
  intros i O Hin. apply in_map_iff in Hin. destruct Hin as (k & E & Hk). inversion E; subst. clear E. apply in_seq in Hk.
  split; [lia|]. intros x. unfold elem_offset, ElemOff. rewrite Den_cat2, (align_is_spec _ We). split.
  - intros (y & z & (b & Db & ->) & (ys & Hl & F & ->) & ->). exists b, ys. repeat split; auto.
    eapply Forall_impl; [|exact F]. intros a. apply bls_is_spec; auto.
  - intros (b & ys & Db & Hl & F & ->). exists (pad (spec_align e) b), (zsum ys). repeat split; [exists b; auto|].
    exists ys. repeat split; auto. eapply Forall_impl; [|exact F]. intros a. apply bls_is_spec; auto.
Qed.

(* `_offset_` after the fields fs of a structure: the end offsets of laying out fs from 0, before any padding *)
Theorem offset_intrinsic_struct fs : forallb (fun f => wft (snd f)) fs = true ->
  forall x, Den (offset_intrinsic false fs) x <-> thread_ok LenSpec spec_align fs 0 x.
Proof. intros W. apply Den_struct_agg, fields_spec_wft, fields_wft. exact W. Qed.

(* `_offset_` after the last variant of a union: tag + union of the variants *)
Theorem offset_intrinsic_union fs : forallb (fun f => wft (snd f)) fs = true -> 2 <= Z.of_nat (length fs) ->
  bitlen (Z.of_nat (length fs) - 1) <= 64 ->
  forall x, Den (offset_intrinsic true fs) x <-> exists l, variant_ok LenSpec fs l /\ x = spec_tag (Z.of_nat (length fs)) + l.
Proof.
  intros W H2 H3 x. unfold offset_intrinsic. rewrite union_agg_eq, Den_leaf_cat by lia.
  pose proof (Den_variants fs (fields_spec_wft fs (fields_wft fs W))) as Hv.
  split; intros (l & Vl & E); exists l; (split; [apply Hv; exact Vl|exact E]).
Qed.

(* the offset trees of structure fields are well-formed, so that the C01 theorems apply to queries on them *)
Lemma wf_sof fs : forallb (fun f => wft (snd f)) fs = true -> forall acc, wf acc -> Forall (fun fo => wf (snd fo)) (struct_offsets_from acc fs).
Proof.
  induction fs as [|g r IH]; intros W acc Ha; cbn [struct_offsets_from]; [constructor|].
  cbn [forallb] in W. apply andb_true_iff in W. destruct W as [Wg Wr]. pose proof (align_pos (snd g)).
  constructor; [cbn [snd wf]; auto|]. apply IH; auto. apply wf_cat2; [split; auto|apply wf_bls; auto].
Qed.
