(* A concrete bound behind C16: for every type that DSDL text can express (array elements are primitives, voids or
   composites), answering a byte-alignment query on its bit length set enumerates at most 64 tuples per node of the
   operator tree - whatever the capacities and extents. *)
From Coq Require Import ZArith List Lia.
From PV Require Import Util.Sumset BLS.Model BLS.Den BLS.Proofs BLS.Cost BLS.CostProofs
  Layout.Types Layout.Proofs Layout.ProofsSpec.
Import ListNotations.
Open Scope Z_scope.

Fixpoint size_op (t : op) : Z :=
  match t with
  | Leaf _ => 1
  | Pad c _ | Rep c _ | RRep c _ => 1 + size_op c
  | Cat cs | Uni cs => 1 + zsum (map size_op cs)
  end.

Lemma size_op_pos t : 1 <= size_op t.
Proof.
  assert (forall cs, Forall (fun c => 1 <= size_op c) cs -> 0 <= zsum (map size_op cs)) as H.
  { intros cs F. apply zsum_nonneg, Forall_map. eapply Forall_impl; [|exact F]. intros c Hc. simpl in *. lia. }
  induction t as [vs|c a IH|cs IH|c k IH|c k IH|cs IH] using op_ind'; cbn [size_op]; try lia.
  - specialize (H cs IH). lia.
  - specialize (H cs IH). lia.
Qed.

(* operator trees in which byte-alignment queries stay at divisor 8 and repetitions see a single residue *)
Fixpoint light (t : op) : Prop :=
  match t with
  | Leaf _ => True
  | Pad c a => (a = 1 \/ a = 8) /\ light c
  | Cat cs => (length cs <= 2)%nat /\ (fix all (l : list op) : Prop := match l with [] => True | c :: r => light c /\ all r end) cs
  | Rep c k | RRep c k => light c /\ zlen (omod c 8) = 1
  | Uni cs => (fix all (l : list op) : Prop := match l with [] => True | c :: r => light c /\ all r end) cs
  end.

Lemma mchoose_1 n : mchoose 1 n = 1.
Proof. induction n as [|n IH]; [reflexivity|]. rewrite mchoose_S, IH, mchoose_0_S. lia. Qed.

Lemma mchoose_upto_1 n : mchoose_upto 1 n = Z.of_nat n + 1.
Proof.
  unfold mchoose_upto. assert (forall a m, fold_right Z.add 0 (map (mchoose 1) (seq a m)) = Z.of_nat m) as H.
  { intros a m. revert a. induction m as [|m IH]; intros a; [reflexivity|]. cbn [seq map fold_right]. rewrite mchoose_1, IH. lia. }
  rewrite H. lia.
Qed.

Lemma lcm_1_8 : Z.lcm 1 8 = 8. Proof. reflexivity. Qed.
Lemma lcm_8_8 : Z.lcm 8 8 = 8. Proof. reflexivity. Qed.

Lemma light_all cs :
  (fix all (l : list op) : Prop := match l with [] => True | c :: r => light c /\ all r end) cs <-> Forall light cs.
Proof.
  induction cs as [|c r IH]; [split; constructor|]. rewrite IH.
  split; [intros [A B]; constructor; auto|intros H; inversion H; auto].
Qed.

Lemma zsum_map_scale (f g : op -> Z) k cs : Forall (fun c => f c <= k * g c) cs -> zsum (map f cs) <= k * zsum (map g cs).
Proof. induction 1; cbn [map]; rewrite ?zsum_cons; simpl; lia. Qed.

Theorem light_cost t : wf t -> light t -> cost_mod t 8 <= 64 * size_op t.
Proof.
  induction 1 as [vs _ _|c a Wc _ IH|cs _ Wcs IH|c k Wc Hk IH|c k Wc Hk IH|cs _ _ IH] using wf_ind;
    cbn [light cost_mod size_op]; intros L.
  - lia.
  - destruct L as [La Lc].
    assert (Z.lcm a 8 = 8) as E by (destruct La as [->| ->]; reflexivity). rewrite E.
    pose proof (omod_len_bound c 8 Wc ltac:(lia)). specialize (IH Lc). lia.
  - destruct L as [Llen Lall]. apply light_all in Lall.
    pose proof (zsum_map_scale _ _ _ _ (Forall_mp _ _ _ IH Lall)) as A.
    assert (zprod (map (fun c => zlen (omod c 8)) cs) <= 64) as P; [|lia].
    assert (forall c, wf c -> 0 <= zlen (omod c 8) <= 8) as B
      by (intros c W; pose proof (omod_len_bound c 8 W ltac:(lia)); unfold zlen in *; lia).
    destruct cs as [|c1 [|c2 [|c3 r]]]; cbn [length] in Llen; try lia; cbn [map zprod fold_right].
    + lia.
    + inversion Wcs as [|? ? W1 _]; subst. pose proof (B c1 W1). lia.
    + inversion Wcs as [|? ? W1 W']; subst. inversion W' as [|? ? W2 _]; subst. pose proof (B c1 W1). pose proof (B c2 W2). nia.
  - destruct L as [Lc L1]. specialize (IH Lc).
    replace (length (omod c 8)) with 1%nat by (unfold zlen in L1; lia). rewrite mchoose_1. lia.
  - destruct L as [Lc L1]. specialize (IH Lc).
    replace (length (omod c 8)) with 1%nat by (unfold zlen in L1; lia). rewrite mchoose_upto_1.
    pose proof (equiv_k_bound k 8 ltac:(lia) Hk). lia.
  - apply light_all in L. pose proof (zsum_map_scale _ _ _ _ (Forall_mp _ _ _ IH L)). lia.
Qed.

(* types expressible in DSDL text: an array element is never itself an array *)
Fixpoint flat (t : ty) : Prop :=
  match t with
  | TPrim _ | TVoid _ => True
  | TFix e _ | TVar e _ => flat e /\ (match e with TFix _ _ | TVar _ _ => False | _ => True end)
  | TStruct _ fs | TUnion _ fs => (fix all (l : list (option str * ty)) : Prop := match l with [] => True | f :: r => flat (snd f) /\ all r end) fs
  | TDelim i _ => flat i
  end.

Lemma leaf1_len w d : zlen (omod (Leaf [w]) d) = 1.
Proof. reflexivity. Qed.

Lemma elem_single_residue e : wft e = true -> (match e with TFix _ _ | TVar _ _ => False | _ => True end) -> zlen (omod (bls e) 8) = 1.
Proof.
  intros W NA. destruct e; try contradiction; try reflexivity;
    rewrite (aligned8_mod8 _ W (composite_align _ W eq_refl)); reflexivity.
Qed.

Lemma light_struct_from acc fs : light acc -> Forall (fun f => light (bls (snd f))) fs -> light (struct_agg_from bls align acc fs).
Proof.
  intros Ha H. revert acc Ha. induction H as [|f r Hf _ IH]; intros acc Ha; cbn [struct_agg_from]; [exact Ha|].
  apply IH. cbn [light]. split; [cbn [length]; lia|]. split; [split; [destruct (align_values (snd f)); auto|exact Ha]|]. split; [exact Hf|exact I].
Qed.

Lemma fields_light fs :
  Forall (fun f => flat (snd f) -> light (bls (snd f))) fs ->
  (fix all (l : list (option str * ty)) : Prop := match l with [] => True | f :: r => flat (snd f) /\ all r end) fs ->
  Forall (fun f => light (bls (snd f))) fs.
Proof. induction 1 as [|f r Hf _ IH]; intros F; constructor; destruct F; auto. Qed.

Theorem bls_light t : wft t = true -> flat t -> light (bls t).
Proof.
  revert t. apply (wft_ind (fun t => flat t -> light (bls t)));
    [intros p _|intros w _|intros e n We _ IH|intros e n We _ _ IH|intros nm fs _ IH
                            |intros nm fs _ H2 H3 IH|intros i ext _ _ _ _ _ _]; cbn [flat bls light]; intros F.
  - exact I.
  - exact I.
  - destruct F as [Fe NA]. split; [apply IH; auto|apply elem_single_residue; auto].
  - destruct F as [Fe NA]. split; [cbn [length]; lia|]. split; [exact I|]. split; [|exact I].
    split; [apply IH; auto|apply elem_single_residue; auto].
  - rewrite max_align_fields. split; [right; reflexivity|]. pose proof (fields_light fs IH F) as Hf.
    destruct fs as [|f r]; cbn [struct_agg]; [exact I|]. inversion Hf; subst. apply light_struct_from; auto.
  - rewrite max_align_fields. split; [right; reflexivity|]. rewrite union_agg_eq by lia. cbn [light].
    split; [cbn [length]; lia|]. split; [exact I|]. split; [|exact I]. apply light_all.
    apply Forall_forall. intros c Hc. apply in_map_iff in Hc. destruct Hc as (f & <- & Hin).
    pose proof (fields_light fs IH F) as Hf. rewrite Forall_forall in Hf. apply Hf. exact Hin.
  - split; [cbn [length]; lia|]. split; [exact I|]. split; [|exact I]. split; [exact I|reflexivity].
Qed.

Theorem byte_alignment_linear t : wft t = true -> flat t -> cost_mod (bls t) 8 <= 64 * size_op (bls t).
Proof. intros W F. apply light_cost; [apply wf_bls; exact W|apply bls_light; assumption]. Qed.
