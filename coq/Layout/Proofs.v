(* Induction over the nested type AST ([ty_ind']) and over well-formed types ([wft_ind]); between them the two facts the latter
   needs and everything later uses: the prefix / tag width formulas are "least of 8/16/32/64 that fits", alignments are 1 or 8. *)
From Coq Require Import ZArith List Bool Lia.
From PV Require Import BLS.Model BLS.Den Layout.Types Layout.Spec.
Import ListNotations.
Open Scope Z_scope.

Section TyInd.
Variable P : ty -> Prop.
Hypothesis HPrim : forall p, P (TPrim p).
Hypothesis HVoid : forall w, P (TVoid w).
Hypothesis HFix : forall e n, P e -> P (TFix e n).
Hypothesis HVar : forall e n, P e -> P (TVar e n).
Hypothesis HStruct : forall nm fs, Forall (fun f => P (snd f)) fs -> P (TStruct nm fs).
Hypothesis HUnion : forall nm fs, Forall (fun f => P (snd f)) fs -> P (TUnion nm fs).
Hypothesis HDelim : forall i ext, P i -> P (TDelim i ext).
Fixpoint ty_ind' (t : ty) : P t :=
  match t with
  | TPrim p => HPrim p
  | TVoid w => HVoid w
  | TFix e n => HFix e n (ty_ind' e)
  | TVar e n => HVar e n (ty_ind' e)
  | TStruct nm fs => HStruct nm fs ((fix go (l : list (option str * ty)) : Forall (fun f => P (snd f)) l :=
      match l with [] => Forall_nil _ | f :: r => Forall_cons f (ty_ind' (snd f)) (go r) end) fs)
  | TUnion nm fs => HUnion nm fs ((fix go (l : list (option str * ty)) : Forall (fun f => P (snd f)) l :=
      match l with [] => Forall_nil _ | f :: r => Forall_cons f (ty_ind' (snd f)) (go r) end) fs)
  | TDelim i ext => HDelim i ext (ty_ind' i)
  end.
End TyInd.

Lemma bitlen_spec n : 1 <= n -> 2 ^ (bitlen n - 1) <= n < 2 ^ bitlen n /\ 1 <= bitlen n.
Proof.
  intros H. unfold bitlen. destruct (n <=? 0) eqn:E; [lia|].
  pose proof (Z.log2_spec n ltac:(lia)) as [A B]. pose proof (Z.log2_nonneg n).
  replace (Z.log2 n + 1 - 1) with (Z.log2 n) by lia. replace (Z.succ (Z.log2 n)) with (Z.log2 n + 1) in B by lia. lia.
Qed.

Lemma bitlen_0 : bitlen 0 = 0. Proof. reflexivity. Qed.

Lemma bitlen_nonneg n : 0 <= bitlen n.
Proof. unfold bitlen. destruct (n <=? 0); [lia|]. pose proof (Z.log2_nonneg n). lia. Qed.

Lemma bitlen_le n w : 0 <= n -> 0 <= w -> (bitlen n <= w <-> n < 2 ^ w).
Proof.
  intros Hn Hw. unfold bitlen. destruct (n <=? 0) eqn:E.
  - pose proof (Z.pow_pos_nonneg 2 w). lia.
  - rewrite Z.log2_lt_pow2 by lia. lia.
Qed.

Lemma pow2_le a b : 0 <= a <= b -> 2 ^ a <= 2 ^ b.
Proof. intros. apply Z.pow_le_mono_r; lia. Qed.

Lemma least_width_values f : In (least_width f) [8; 16; 32; 64].
Proof. unfold least_width. destruct (f 8), (f 16), (f 32); simpl; auto. Qed.

Lemma least_width_pos f : 8 <= least_width f /\ (8 | least_width f).
Proof.
  destruct (least_width_values f) as [<-|[<-|[<-|[<-|[]]]]]; split; try lia; [exists 1|exists 2|exists 4|exists 8]; lia.
Qed.

Lemma least_width_ext f g : (forall w, 0 < w -> f w = g w) -> least_width f = least_width g.
Proof. intros H. unfold least_width. rewrite !H by lia. reflexivity. Qed.

(* "smallest that can hold": the candidates are tried in increasing order *)
Lemma least_width_least f : f 64 = true ->
  f (least_width f) = true /\ forall w, In w [8; 16; 32; 64] -> f w = true -> least_width f <= w.
Proof.
  intros H64. unfold least_width. destruct (f 8) eqn:E8, (f 16) eqn:E16, (f 32) eqn:E32; (split; [assumption|]);
    intros w [<-|[<-|[<-|[<-|[]]]]] Hw; try lia; congruence.
Qed.

(* 2 ** ceil(log2(max(8, b))) is the least of 8/16/32/64 that is at least b *)
Lemma pow2_ceil8_least b : b <= 64 -> pow2_ceil8 b = least_width (fun w => b <=? w).
Proof.
  intros H. unfold pow2_ceil8, least_width.
  destruct (b <=? 8) eqn:E8; [rewrite Z.max_l by lia; reflexivity|]. rewrite Z.max_r by lia.
  destruct (b <=? 16) eqn:E16; [rewrite (Z.log2_up_unique b 4) by lia; reflexivity|].
  destruct (b <=? 32) eqn:E32; [rewrite (Z.log2_up_unique b 5) by lia; reflexivity|].
  rewrite (Z.log2_up_unique b 6) by lia. reflexivity.
Qed.

(* the code's float-free formula agrees with "smallest of 8/16/32/64 that can hold the capacity" *)
Lemma prefix_is_spec n : 1 <= n -> bitlen n <= 64 -> pow2_ceil8 (bitlen n) = spec_prefix n.
Proof.
  intros Hn Hb. rewrite pow2_ceil8_least by exact Hb. apply least_width_ext. intros w Hw.
  apply eq_iff_eq_true. rewrite Z.leb_le, Z.ltb_lt. apply bitlen_le; lia.
Qed.

Lemma tag_is_spec n : 2 <= n -> bitlen (n - 1) <= 64 -> pow2_ceil8 (bitlen (n - 1)) = spec_tag n.
Proof.
  intros Hn Hb. rewrite pow2_ceil8_least by exact Hb. apply least_width_ext. intros w Hw.
  apply eq_iff_eq_true. rewrite !Z.leb_le, bitlen_le by lia. lia.
Qed.

Lemma spec_prefix_least n : n < 2 ^ 64 -> n < 2 ^ spec_prefix n /\ forall w, In w [8; 16; 32; 64] -> n < 2 ^ w -> spec_prefix n <= w.
Proof.
  intros H. destruct (least_width_least (fun w => n <? 2 ^ w)) as [A B]; [apply Z.ltb_lt; exact H|].
  split; [apply Z.ltb_lt; exact A|]. intros w Hw L. apply B; [exact Hw|apply Z.ltb_lt; exact L].
Qed.

Lemma spec_tag_least n : n <= 2 ^ 64 -> n <= 2 ^ spec_tag n /\ forall w, In w [8; 16; 32; 64] -> n <= 2 ^ w -> spec_tag n <= w.
Proof.
  intros H. destruct (least_width_least (fun w => n <=? 2 ^ w)) as [A B]; [apply Z.leb_le; exact H|].
  split; [apply Z.leb_le; exact A|]. intros w Hw L. apply B; [exact Hw|apply Z.leb_le; exact L].
Qed.

Lemma spec_align_values t : spec_align t = 1 \/ spec_align t = 8.
Proof. induction t; simpl; auto. Qed.

Lemma max_align_8 (A : ty -> Z) fs : Forall (fun f => A (snd f) = 1 \/ A (snd f) = 8) fs -> max_align A fs = 8.
Proof. unfold max_align. induction 1 as [|f r Hf _ IH]; cbn [fold_right]; [reflexivity|]. rewrite IH. lia. Qed.

Lemma align_values t : align t = 1 \/ align t = 8.
Proof.
  induction t as [p|w|e n IH|e n IH|nm fs IH|nm fs IH|i ext IH] using ty_ind'; cbn [align]; auto.
  - right. apply max_align_8. exact IH.
  - right. apply max_align_8. exact IH.
Qed.

Lemma align_pos t : 1 <= align t.
Proof. destruct (align_values t); lia. Qed.

Lemma max_align_fields fs : max_align align fs = 8.
Proof. apply max_align_8. apply Forall_forall. intros f _. apply align_values. Qed.

Lemma fields_wft fs : all_fields_ok wft fs = true -> Forall (fun f => wft (snd f) = true) fs.
Proof. intros H. apply Forall_forall. intros f Hf. exact (proj1 (forallb_forall _ _) H f Hf). Qed.

(* induction over well-formed types: the checks of [wft] arrive decoded as hypotheses of each case *)
Lemma wft_ind (P : ty -> Prop) :
  (forall p, prim_ok p = true -> P (TPrim p)) ->
  (forall w, 1 <= w <= 64 -> P (TVoid w)) ->
  (forall e n, wft e = true -> 1 <= n -> P e -> P (TFix e n)) ->
  (forall e n, wft e = true -> 1 <= n -> bitlen n <= 64 -> P e -> P (TVar e n)) ->
  (forall nm fs, Forall (fun f => wft (snd f) = true) fs -> Forall (fun f => P (snd f)) fs -> P (TStruct nm fs)) ->
  (forall nm fs, Forall (fun f => wft (snd f) = true) fs -> 2 <= Z.of_nat (length fs) ->
     bitlen (Z.of_nat (length fs) - 1) <= 64 -> Forall (fun f => P (snd f)) fs -> P (TUnion nm fs)) ->
  (forall i ext, wft i = true -> align i = 8 -> extent i = omax (bls i) -> (8 | ext) -> extent i <= ext -> P i -> P (TDelim i ext)) ->
  forall t, wft t = true -> P t.
Proof.
  intros HPrim HVoid HFix HVar HStruct HUnion HDelim.
  induction t as [p|w|e n IH|e n IH|nm fs IH|nm fs IH|i ext IH] using ty_ind'; cbn [wft]; rewrite ?andb_true_iff, ?Z.leb_le.
  - auto.
  - auto.
  - intros [We Hn]. auto.
  - intros [[We Hn] Hb]. auto.
  - intros W. apply fields_wft in W. apply HStruct; [exact W|exact (Forall_mp _ _ _ IH W)].
  - intros [[W H2] H3]. apply fields_wft in W. apply HUnion; auto. exact (Forall_mp _ _ _ IH W).
  - rewrite Z.eqb_eq. intros [[[Wi C] Hm] He].
    assert (align i = 8) as A8 by (destruct i; try discriminate; apply max_align_fields).
    rewrite A8 in Hm. apply HDelim; auto; [destruct i; try discriminate; reflexivity|apply Z.mod_divide; [lia|exact Hm]].
Qed.

Lemma align_is_spec t : wft t = true -> align t = spec_align t.
Proof. revert t. apply wft_ind; intros; cbn [align spec_align]; auto using max_align_fields. Qed.

Lemma composite_align t : wft t = true -> is_composite t = true -> align t = 8.
Proof. intros W C. rewrite align_is_spec by auto. destruct t; try discriminate; reflexivity. Qed.
