(* The operator tree [bls t] of a well-formed type is well-formed and denotes exactly the Specification's lengths [LenSpec t]
   (C02); consequences for alignment, extent and the expansion of the set. *)
From Coq Require Import ZArith List Bool Lia.
From PV Require Import Util.ListSet Util.Sumset BLS.Model BLS.Den BLS.Proofs BLS.ProofsMod
  Layout.Types Layout.Spec Layout.Proofs.
Import ListNotations.
Open Scope Z_scope.

Lemma Den_leaf1 w x : Den (Leaf [w]) x <-> x = w.
Proof. simpl. split; [intros [H|[]]; auto|auto]. Qed.

Lemma Den_cat2 a b x : Den (Cat [a; b]) x <-> exists y z, Den a y /\ Den b z /\ x = y + z.
Proof.
  cbn [Den]. split.
  - intros (ys & H & ->). destruct ys as [|y [|z [|? ?]]]; simpl in H; try tauto.
    exists y, z. simpl. repeat split; try tauto. lia.
  - intros (y & z & Hy & Hz & ->). exists [y; z]. simpl. repeat split; auto. lia.
Qed.

Lemma Den_leaf_cat w b x : Den (Cat [Leaf [w]; b]) x <-> exists z, Den b z /\ x = w + z.
Proof.
  rewrite Den_cat2. split.
  - intros (y & z & Dy & Dz & ->). apply Den_leaf1 in Dy. subst y. eauto.
  - intros (z & Dz & ->). exists w, z. repeat split; [apply Den_leaf1; reflexivity|exact Dz].
Qed.

Lemma Den_cat_leaf a w x : Den (Cat [a; Leaf [w]]) x <-> exists y, Den a y /\ x = y + w.
Proof.
  rewrite Den_cat2. split.
  - intros (y & z & Dy & Dz & ->). apply Den_leaf1 in Dz. subst z. eauto.
  - intros (y & Dy & ->). exists y, w. repeat split; [exact Dy|apply Den_leaf1; reflexivity].
Qed.

Lemma Den_pad c a x : Den (Pad c a) x <-> exists y, Den c y /\ x = pad a y.
Proof. reflexivity. Qed.

Lemma wf_leaf1 w : 0 <= w -> wf (Leaf [w]).
Proof. intros H. split; [discriminate|]. constructor; [exact H|constructor]. Qed.

Lemma wf_cat2 a b : wf a -> wf b -> wf (Cat [a; b]).
Proof. intros Ha Hb. cbn [wf allw]. split; [discriminate|auto]. Qed.

Lemma pad_0 a : 1 <= a -> pad a 0 = 0.
Proof. intros. unfold pad. rewrite Z.div_small by lia. lia. Qed.

Lemma pad_aligned a x : 1 <= a -> (a | x) -> pad a x = x.
Proof.
  intros Ha [q ->]. unfold pad. replace (q * a + a - 1) with ((a - 1) + q * a) by lia.
  rewrite Z.div_add by lia. rewrite Z.div_small by lia. lia.
Qed.

Lemma zsum_all8 ys : Forall (fun y => In y [8]) ys -> zsum ys = 8 * Z.of_nat (length ys).
Proof. induction 1 as [|y ys [<-|[]] _ IH]; [reflexivity|]. rewrite zsum_cons, IH. cbn [length]. lia. Qed.

Lemma Den_delim ext x :
  Den (Cat [Leaf [header_width 8]; RRep (Leaf [8]) (ext / 8)]) x <-> exists j, 0 <= j <= ext / 8 /\ x = 32 + 8 * j.
Proof.
  rewrite Den_leaf_cat. split.
  - intros (z & (ys & A & B & ->) & ->).
    exists (Z.of_nat (length ys)). rewrite (zsum_all8 ys B). split; [lia|reflexivity].
  - intros (j & Hj & ->). exists (8 * j). split; [|reflexivity].
    exists (repeat 8 (Z.to_nat j)). rewrite repeat_length, zsum_repeat. repeat split; [lia| |lia].
    apply Forall_forall. intros y Hy. apply repeat_spec in Hy. subst. left. reflexivity.
Qed.

Lemma pow2_ceil8_ge8 b : b <= 64 -> 8 <= pow2_ceil8 b /\ (8 | pow2_ceil8 b).
Proof. intros H. rewrite pow2_ceil8_least by exact H. apply least_width_pos. Qed.

Lemma prefix_width_eq e n : 1 <= n -> bitlen n <= 64 -> prefix_width (align e) n = spec_prefix n.
Proof.
  intros Hn Hb. unfold prefix_width. destruct (pow2_ceil8_ge8 (bitlen n) Hb) as [G _].
  rewrite Z.max_l by (destruct (align_values e) as [E|E]; rewrite E; lia). apply prefix_is_spec; auto.
Qed.

Lemma fold_align_le8 fs : 0 <= fold_right (fun (f : option str * ty) acc => Z.max (align (snd f)) acc) 0 fs <= 8.
Proof. induction fs as [|f r IH]; simpl; [lia|]. destruct (align_values (snd f)) as [E|E]; rewrite E; lia. Qed.

Lemma union_tag_eq fs : 2 <= Z.of_nat (length fs) -> bitlen (Z.of_nat (length fs) - 1) <= 64 ->
  union_tag_width fs = spec_tag (Z.of_nat (length fs)).
Proof.
  intros Hn Hb. unfold union_tag_width, tag_width.
  destruct (pow2_ceil8_ge8 (bitlen (Z.of_nat (length fs) - 1)) Hb) as [G _].
  pose proof (fold_align_le8 fs). rewrite Z.max_l by lia. apply tag_is_spec; auto.
Qed.

Lemma spec_prefix_pos n : 8 <= spec_prefix n /\ (8 | spec_prefix n).
Proof. apply least_width_pos. Qed.
Lemma spec_tag_pos n : 8 <= spec_tag n /\ (8 | spec_tag n).
Proof. apply least_width_pos. Qed.

Lemma union_agg_eq fs : 2 <= Z.of_nat (length fs) -> bitlen (Z.of_nat (length fs) - 1) <= 64 ->
  union_agg bls align fs = Cat [Leaf [spec_tag (Z.of_nat (length fs))]; Uni (map (fun f => bls (snd f)) fs)].
Proof.
  intros H2 H3. destruct fs as [|f1 [|f2 r]]; [simpl in H2; lia|simpl in H2; lia|].
  cbn [union_agg]. fold (union_tag_width (f1 :: f2 :: r)). rewrite union_tag_eq by lia. reflexivity.
Qed.

Lemma wf_struct_from acc fs :
  wf acc -> Forall (fun f => wf (bls (snd f))) fs -> wf (struct_agg_from bls align acc fs).
Proof.
  intros Ha H. revert acc Ha. induction H as [|f r Hf _ IH]; intros acc Ha; cbn [struct_agg_from]; [exact Ha|].
  apply IH. apply wf_cat2; [split; [exact Ha|apply align_pos]|exact Hf].
Qed.

Lemma wf_bls t : wft t = true -> wf (bls t) /\ 0 <= omax (bls t).
Proof.
  assert (forall t, wf (bls t) -> wf (bls t) /\ 0 <= omax (bls t)) as K.
  { intros t0 W. split; auto. destruct (omax_ok _ W) as [D _]. eapply Den_nonneg; eauto. }
  revert t. apply wft_ind; [intros p Hp|intros w Hw|intros e n _ Hn IH|intros e n _ Hn Hb IH|intros nm fs _ IH
                            |intros nm fs _ H2 H3 IH|intros i ext _ A8 Ei _ He IH]; apply K; cbn [bls].
  - apply wf_leaf1. destruct p; simpl in Hp |- *; lia.
  - apply wf_leaf1. lia.
  - cbn [wf]. split; [apply IH|lia].
  - apply wf_cat2; [|split; [apply IH|lia]].
    apply wf_leaf1. rewrite prefix_width_eq by lia. pose proof (spec_prefix_pos n). lia.
  - cbn [wf]. rewrite max_align_fields. split; [|lia].
    assert (Forall (fun f => wf (bls (snd f))) fs) as Hf by (eapply Forall_impl; [|exact IH]; intros f [H _]; exact H).
    destruct fs as [|f r]; cbn [struct_agg]; [apply wf_leaf1; lia|].
    inversion Hf; subst. apply wf_struct_from; auto.
  - cbn [wf]. rewrite max_align_fields. split; [|lia]. rewrite union_agg_eq by lia.
    apply wf_cat2; [apply wf_leaf1; pose proof (spec_tag_pos (Z.of_nat (length fs))); lia|].
    split; [destruct fs; [simpl in H2; lia|discriminate]|].
    apply allw_Forall. apply Forall_forall. intros c Hc. apply in_map_iff in Hc. destruct Hc as (f & <- & Hin).
    rewrite Forall_forall in IH. apply IH. exact Hin.
  - rewrite A8. apply wf_cat2; [apply wf_leaf1; unfold header_width; lia|].
    split; [apply wf_leaf1; lia|apply Z.div_pos; lia].
Qed.

(* once the fields denote their Specification lengths, structure aggregation is positional threading and union
   aggregation the choice of a variant *)
Definition fields_spec (fs : list (option str * ty)) : Prop :=
  Forall (fun f => wft (snd f) = true /\ forall l, Den (bls (snd f)) l <-> LenSpec (snd f) l) fs.

Lemma Den_struct_from fs : fields_spec fs ->
  forall acc x, Den (struct_agg_from bls align acc fs) x <-> exists off, Den acc off /\ thread_ok LenSpec spec_align fs off x.
Proof.
  induction 1 as [|f r [Wf Hf] _ IH]; intros acc x; cbn [struct_agg_from thread_ok].
  - split; [intros D; exists x; auto|intros (off & D & ->); exact D].
  - rewrite IH, <- (align_is_spec _ Wf). split.
    + intros (off' & D & T). apply Den_cat2 in D. destruct D as (y & z & (off & Doff & ->) & Dz & ->).
      exists off. split; auto. exists z. split; [apply Hf; auto|exact T].
    + intros (off & Doff & l & Ll & T). exists (pad (align (snd f)) off + l). split; [|exact T].
      apply Den_cat2. exists (pad (align (snd f)) off), l. repeat split; [exists off; auto|apply Hf; auto].
Qed.

Lemma Den_struct_agg fs : fields_spec fs ->
  forall x, Den (struct_agg bls align fs) x <-> thread_ok LenSpec spec_align fs 0 x.
Proof.
  intros H x. destruct H as [|f r [Wf Hf] Hr]; cbn [struct_agg thread_ok].
  - rewrite Den_leaf1. reflexivity.
  - rewrite (Den_struct_from r Hr), pad_0 by (rewrite <- (align_is_spec _ Wf); apply align_pos).
    split; intros (l & Ll & T); exists l; (split; [apply Hf; exact Ll|exact T]).
Qed.

Lemma Den_variants fs : fields_spec fs ->
  forall l, Den (Uni (map (fun f => bls (snd f)) fs)) l <-> variant_ok LenSpec fs l.
Proof. cbn [Den]. induction 1 as [|f r [_ Hf] _ IH]; intros l; cbn [map any1 variant_ok]; [tauto|]. rewrite Hf, IH. tauto. Qed.

(* C02: the operator tree of every type denotes exactly the Specification's lengths *)
Theorem bls_is_spec t : wft t = true -> forall x, Den (bls t) x <-> LenSpec t x.
Proof.
  revert t. apply (wft_ind (fun t => forall x, Den (bls t) x <-> LenSpec t x));
    [intros p _|intros w _|intros e n _ Hn IH|intros e n _ Hn Hb IH|intros nm fs W IH
                            |intros nm fs W H2 H3 IH|intros i ext _ A8 _ _ _ _]; intros x; cbn [bls LenSpec].
  - apply Den_leaf1.
  - apply Den_leaf1.
  - cbn [Den]. split; intros (ys & A & B & ->); exists ys; repeat split; auto;
      (eapply Forall_impl; [|exact B]); intros y; apply IH.
  - rewrite Den_leaf_cat, prefix_width_eq by lia. split.
    + intros (z & (ys & A & B & ->) & ->). exists ys. repeat split; auto.
      eapply Forall_impl; [|exact B]. intros y; apply IH.
    + intros (ys & A & B & ->). exists (zsum ys). split; [|reflexivity].
      exists ys. repeat split; auto. eapply Forall_impl; [|exact B]. intros y; apply IH.
  - rewrite max_align_fields, Den_pad. pose proof (Den_struct_agg fs (Forall_and W IH)) as HS.
    split; intros (e & He & ->); exists e; (split; [apply HS; exact He|reflexivity]).
  - rewrite max_align_fields, Den_pad, union_agg_eq by lia. pose proof (Den_variants fs (Forall_and W IH)) as Hv. split.
    + intros (y & Dy & ->). apply Den_leaf_cat in Dy. destruct Dy as (b & Db & ->).
      exists b. split; auto. apply Hv. exact Db.
    + intros (l & Vl & ->). exists (spec_tag (Z.of_nat (length fs)) + l). split; auto. apply Den_leaf_cat.
      exists l. split; [apply Hv; exact Vl|reflexivity].
  - rewrite A8. apply Den_delim.
Qed.

Lemma fields_spec_wft fs : Forall (fun f => wft (snd f) = true) fs -> fields_spec fs.
Proof. intros W. eapply Forall_impl; [|exact W]. intros f Wf. split; [exact Wf|apply bls_is_spec; exact Wf]. Qed.

Lemma zsum_divide a ys : Forall (fun y => (a | y)) ys -> (a | zsum ys).
Proof. induction 1; [exists 0; reflexivity|]. rewrite zsum_cons. apply Z.divide_add_r; auto. Qed.

Theorem align_divides t : wft t = true -> forall x, Den (bls t) x -> (align t | x).
Proof.
  revert t. apply (wft_ind (fun t => forall x, Den (bls t) x -> (align t | x)));
    [intros p _|intros w _|intros e n _ _ IH|intros e n _ Hn Hb IH|intros nm fs _ _
                            |intros nm fs _ _ _ _|intros i ext _ A8 _ _ _ _]; intros x D; cbn [align]; cbn [bls] in D.
  - apply Z.divide_1_l.
  - apply Z.divide_1_l.
  - destruct D as (ys & _ & B & ->). apply zsum_divide. eapply Forall_impl; [|exact B]. exact IH.
  - apply Den_leaf_cat in D. destruct D as (z & (ys & _ & B & ->) & ->).
    apply Z.divide_add_r; [|apply zsum_divide; eapply Forall_impl; [|exact B]; exact IH].
    rewrite prefix_width_eq by lia. destruct (align_values e) as [E|E]; rewrite E; [apply Z.divide_1_l|apply spec_prefix_pos].
  - destruct D as (y & _ & ->). apply pad_divide.
  - destruct D as (y & _ & ->). apply pad_divide.
  - rewrite A8 in *. apply Den_delim in D. destruct D as (j & _ & ->). exists (4 + j). lia.
Qed.

Lemma aligned8_mod8 t : wft t = true -> align t = 8 -> omod (bls t) 8 = [0].
Proof.
  intros W A. pose proof (is_aligned_spec (bls t) 8 (proj1 (wf_bls t W)) ltac:(discriminate)) as [_ H].
  unfold is_aligned in H. apply list_eqb_eq. apply H. intros x D. rewrite <- A. exact (align_divides t W x D).
Qed.

Lemma oexpand_bls_spec t : wft t = true -> forall x, In x (oexpand (bls t)) <-> LenSpec t x.
Proof. intros W x. rewrite (oexpand_spec (bls t) (proj1 (wf_bls t W))). exact (bls_is_spec t W x). Qed.

Theorem sealed_extent t : wft t = true -> (match t with TDelim _ _ => False | _ => True end) ->
  extent t = omax (bls t) /\ Den (bls t) (extent t) /\ forall x, Den (bls t) x -> x <= extent t.
Proof.
  intros W S. destruct (wf_bls t W) as [Wf _]. destruct (omax_ok _ Wf) as [A B].
  destruct t; try contradiction; cbn [extent]; auto.
Qed.

Theorem delimited_spec i ext : wft (TDelim i ext) = true ->
  forall x, Den (bls (TDelim i ext)) x <-> exists j, 0 <= j <= ext / 8 /\ x = 32 + 8 * j.
Proof. intros W x. rewrite (bls_is_spec _ W). reflexivity. Qed.

Theorem extent_rules i ext : wft (TDelim i ext) = true <->
  (wft i = true /\ (exists nm fs, i = TStruct nm fs \/ i = TUnion nm fs) /\ (8 | ext) /\ extent i <= ext).
Proof.
  cbn [wft]. split.
  - intros H. repeat (apply andb_true_iff in H; destruct H as [H ?]).
    assert (align i = 8) as A8 by (apply composite_align; auto; destruct i; auto). rewrite A8 in *.
    repeat split; auto; [destruct i; try discriminate; eauto|apply Z.mod_divide; lia|lia].
  - intros (W & (nm & fs & [->| ->]) & D & E); cbn [align]; rewrite max_align_fields;
      rewrite W; simpl; apply andb_true_iff; (split; [apply Z.eqb_eq, Z.mod_divide; [lia|auto]|apply Z.leb_le; exact E]).
Qed.
