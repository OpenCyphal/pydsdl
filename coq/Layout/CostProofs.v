(* One mechanism behind C16: structures are aggregated pairwise (left-nested), so every concatenation node of a
   type's operator tree has at most two operands and a single modulo() call enumerates at most divisor^2 tuples. *)
From Coq Require Import ZArith List Lia.
From PV Require Import BLS.Model BLS.Den BLS.Cost BLS.CostProofs Layout.Types Layout.Proofs Layout.Offsets.
Import ListNotations.
Open Scope Z_scope.

Fixpoint binary_cats (t : op) : Prop :=
  match t with
  | Leaf _ => True
  | Pad c _ | Rep c _ | RRep c _ => binary_cats c
  | Cat cs => (length cs <= 2)%nat /\ (fix all (l : list op) : Prop := match l with [] => True | c :: r => binary_cats c /\ all r end) cs
  | Uni cs => (fix all (l : list op) : Prop := match l with [] => True | c :: r => binary_cats c /\ all r end) cs
  end.

Lemma binary_struct_from acc fs : binary_cats acc -> Forall (fun f => binary_cats (bls (snd f))) fs ->
  binary_cats (struct_agg_from bls align acc fs).
Proof.
  intros Ha H. revert acc Ha. induction H as [|f r Hf _ IH]; intros acc Ha; cbn [struct_agg_from]; [exact Ha|].
  apply IH. cbn [binary_cats]. split; [cbn [length]; lia|]. repeat split; auto.
Qed.

Lemma binary_all_map fs : Forall (fun f : option str * ty => binary_cats (bls (snd f))) fs ->
  (fix all (l : list op) : Prop := match l with [] => True | c :: r => binary_cats c /\ all r end) (map (fun f => bls (snd f)) fs).
Proof. induction 1; cbn [map]; auto. Qed.

Theorem bls_binary t : binary_cats (bls t).
Proof.
  induction t as [p|w|e n IH|e n IH|nm fs IH|nm fs IH|i ext IH] using ty_ind'; cbn [bls binary_cats]; auto.
  - destruct fs as [|f r]; cbn [struct_agg]; [exact I|]. inversion IH; subst. apply binary_struct_from; auto.
  - destruct fs as [|f1 [|f2 r]]; cbn [union_agg].
    + exact I.
    + inversion IH; subst. assumption.
    + cbn [binary_cats length]. split; [lia|]. split; [exact I|]. split; [|exact I]. apply (binary_all_map (f1 :: f2 :: r)). exact IH.
Qed.

Theorem cat2_local_bound a b d : wf a -> wf b -> 1 <= d ->
  local_cost KCat [zlen (omod a d); zlen (omod b d)] 0 d <= d * d.
Proof.
  intros Wa Wb Hd. cbn [local_cost zprod fold_right].
  pose proof (omod_len_bound a d Wa Hd). pose proof (omod_len_bound b d Wb Hd).
  assert (0 <= zlen (omod a d)) by (unfold zlen; lia). assert (0 <= zlen (omod b d)) by (unfold zlen; lia). nia.
Qed.

Theorem offsets_binary fs : Forall (fun f => binary_cats (bls (snd f))) fs -> forall acc, binary_cats acc ->
  Forall (fun fo => binary_cats (snd fo)) (struct_offsets_from acc fs).
Proof.
  induction 1 as [|f r Hf _ IH]; intros acc Ha; cbn [struct_offsets_from]; constructor; [exact Ha|].
  apply IH. cbn [binary_cats]. split; [cbn [length]; lia|]. repeat split; auto.
Qed.
