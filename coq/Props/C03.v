(* C03 - the model mirrors the source text, independent of formatting.  Statements only.
   Machine: Builder/Lines.v; declarative content of a text: Builder/Spec.v.  All theorems hold for every payload type,
   every dependency reader and print handler. *)
From Coq Require Import ZArith List.
From PV Require Import Builder.Lines Builder.Basics Builder.Spec Builder.Mirror Builder.Blank Builder.Extra Builder.ExtraFull Builder.Render Builder.RenderProofs.
Import ListNotations.
Open Scope Z_scope.

Section S.
Variables T V D W : Type.
Variable read_dep : D -> W -> W * option eloc.
Variable emit : Z -> text -> W -> W.
Notation line := (line T V D).
Notation run := (run T V D W read_dep emit).

(* whenever a text is accepted, the returned model is the declaratively defined content of the text:
   - fields/paddings and constants are the attribute statements of the section in source order, each with its doc
     (attrs_of: the comment on its own line, `own`, and the comment lines that follow up to the next statement or empty
     line, `lead`);
   - the header doc is made of the comment lines in front of the first statement / empty line of the section (for the
     response: starting with the comment on the marker line);
   - union / extent-or-sealed / deprecated are exactly the directives of the section (exactly one mode directive);
   - the text is a service iff it has a marker line, the sections are the lines before and after the first marker, and
     there is no second one *)
Theorem C03_mirror : forall (ls : list line) (w : W) (m : model T V) (w' : W), run ls w = Ok (m, w') ->
  m_deprecated T V m = has_dir T V D KDeprecated ls
  /\ match split_marker T V D ls with
     | (rq, None) => mirrors T V D (lead T V D rq) rq (m_req T V m) /\ m_resp T V m = None
     | (rq, Some (ml, rs)) => mirrors T V D (lead T V D rq) rq (m_req T V m)
                              /\ exists k, m_resp T V m = Some k /\ mirrors T V D (own T V D ml ++ lead T V D rs) rs k
                                           /\ no_marker T V D rs
     end.
Proof. exact (mirror T V D W read_dep emit). Qed.

(* "each exactly once, in source order": the attributes of a mirrored section, docs dropped, are the attribute statements *)
Theorem C03_mirror_once : forall hdr (ls : list line) (k : sect T V), mirrors T V D hdr ls k ->
  map fst (k_fields T V k) = filter (fieldlike T V) (stmt_attrs T V D ls)
  /\ map fst (k_consts T V k) = filter (fun a => negb (fieldlike T V a)) (stmt_attrs T V D ls).
Proof. exact (mirrors_once T V D). Qed.

(* every way the text can end: a final line feed (an additional empty last line) changes neither the model nor the
   world nor an error *)
Theorem C03_final_newline : forall (ls : list line) (w : W), ls <> [] -> run (ls ++ [empty_line]) w = run ls w.
Proof. exact (fun ls w _ => final_newline T V D W read_dep emit ls w). Qed.

(* a blanks-only line inserted anywhere (also as the last line) changes neither acceptance nor the model nor the world,
   provided the world does not record the line numbers passed to the print handler (they do shift) *)
Theorem C03_blank_lines : (forall n n' t w, emit n t w = emit n' t w) ->
  forall (p r : list line) (w : W), p ++ r <> [] ->
  outcome T V W (run (p ++ blank_line T V D :: r) w) = outcome T V W (run (p ++ r) w).
Proof. exact (fun B p r w _ => blank_lines T V D W read_dep emit B p r w). Qed.

(* an extra comment line inserted anywhere changes neither acceptance nor the world nor anything in the model but docs
   (same proviso about line numbers passed to the print handler) *)
Theorem C03_extra_comment_lines : (forall n n' t w, emit n t w = emit n' t w) ->
  forall (p : list line) (x : line) (r : list line) (w : W),
  l_stmt T V D x = None -> l_comment T V D x <> None -> p ++ r <> [] ->
  outcome_undoc T V W (run (p ++ x :: r) w) = outcome_undoc T V W (run (p ++ r) w).
Proof. exact (fun B p x r w Hs Hc _ => comment_lines T V D W read_dep emit B p x r w Hs Hc). Qed.

(* an extra empty line inserted anywhere (an earlier flush) changes neither acceptance nor the world nor anything in the
   model but docs, provided no later statement evaluates _offset_ before it has visited an identifier (gl_line: true of
   every statement of the grammar, where _offset_ is itself an identifier) *)
Theorem C03_extra_empty_lines : (forall n n' t w, emit n t w = emit n' t w) ->
  forall (p r : list line) (w : W), Forall (gl_line T V D) r -> p ++ r <> [] ->
  outcome_undoc T V W (run (p ++ empty_line :: r) w) = outcome_undoc T V W (run (p ++ r) w).
Proof. exact (fun B p r w G _ => empty_lines T V D W read_dep emit B p r w G). Qed.

(* any two accepted texts with the same statements (comments moved, removed, added; separator lines changed) yield models
   that differ in docs only.  Partial: acceptance of both is assumed here (for single inserted lines it is proved above) *)
Theorem C03_same_statements_partial : forall (ls1 ls2 : list line) (w1 w2 : W) m1 m2 w1' w2',
  sk T V D ls1 = sk T V D ls2 -> run ls1 w1 = Ok (m1, w1') -> run ls2 w2 = Ok (m2, w2') -> undoc T V m1 = undoc T V m2.
Proof. exact (same_statements T V D W read_dep emit). Qed.

(* rendering a model back to canonical DSDL (header comments, @deprecated, @union, every attribute with its doc as the
   comment on its line and on the following lines, @sealed / @extent, --- and the response likewise) and reading that
   again yields the same model - for every model satisfying wf_model (fields are fields, constants are constants, no doc
   starts with a line feed, unions have two variants) *)
Theorem C03_render : forall (m : model T V) (w : W), wf_model T V m -> exists w', run (render T V D m) w = Ok (m, w').
Proof. exact (render_reads_back T V D W read_dep emit). Qed.

End S.
Print Assumptions C03_render.
Print Assumptions C03_mirror.
Print Assumptions C03_mirror_once.
Print Assumptions C03_final_newline.
Print Assumptions C03_blank_lines.
Print Assumptions C03_extra_comment_lines.
Print Assumptions C03_extra_empty_lines.
Print Assumptions C03_same_statements_partial.

(* non-vacuity: a service definition with header docs, a field whose doc continues on a comment line, a padding, a
   constant, a union response, and no final line feed ("# h / @deprecated / uint8 a # d / # d2 / void3 / X = 5 / @extent 64 /
   --- # rh / @union / a / b / @sealed"): the machine accepts it, the hypotheses of C03_mirror and C03_render are met *)
Definition ex_lines : list (line unit Z unit) :=
  [ Line None false (Some [32; 104]) 0;
    Line (Some (Stmt [PIdent] (XDir KDeprecated GNone []))) false None 0;
    Line (Some (Stmt [PIdent] (XAttr (AField tt [97]) false))) false (Some [32; 100]) 0;
    Line None false (Some [32; 100; 50]) 0;
    Line (Some (Stmt [] (XAttr (APad tt) false))) false None 0;
    Line None true None 0;
    Line (Some (Stmt [PIdent] (XAttr (AConst tt [88] 5) false))) false None 0;
    Line (Some (Stmt [PIdent] (XDir KExtent (GInt 64) []))) false None 0;
    Line (Some (Stmt [] XMarker)) false (Some [32; 114; 104]) 0;
    Line (Some (Stmt [PIdent] (XDir KUnion GNone []))) false None 0;
    Line (Some (Stmt [PIdent] (XAttr (AField tt [97]) false))) false None 0;
    Line (Some (Stmt [PIdent] (XAttr (AField tt [98]) false))) false None 0;
    Line (Some (Stmt [PIdent] (XDir KSealed GNone []))) false None 0 ].
Definition ex_model : model unit Z :=
  Model unit Z true
    (Sect unit Z false (Some 64) [104] [(AField tt [97], [100; 10; 100; 50]); (APad tt, [])] [(AConst tt [88] 5, [])])
    (Some (Sect unit Z true None [114; 104] [(AField tt [97], []); (AField tt [98], [])] [])).
Example C03_nonvacuous :
  run unit Z unit unit (fun _ w => (w, None)) (fun _ _ w => w) ex_lines tt = Ok (ex_model, tt)
  /\ run unit Z unit unit (fun _ w => (w, None)) (fun _ _ w => w) (render unit Z unit ex_model) tt = Ok (ex_model, tt).
Proof. split; vm_compute; reflexivity. Qed.
