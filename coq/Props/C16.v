(* C16 - Layout analysis is symbolic: cost does not grow with capacities or extents. Statements only.
   A statement about wall time is not a theorem; its logical core is: which sets are ever enumerated and how big. *)
From Coq Require Import ZArith List Bool.
From PV Require Import Util.Sumset BLS.Model BLS.Den BLS.ProofsMod BLS.Cost BLS.CostProofs
  Layout.Types Layout.ProofsSpec Layout.Offsets Layout.CostProofs Layout.CostLinear.
Import ListNotations.
Open Scope Z_scope.

(* no residue set is larger than the queried divisor *)
Theorem C16_residue_sets_bounded : forall t d, wf t -> 1 <= d -> zlen (omod t d) <= d.
Proof. exact omod_len_bound. Qed.
Print Assumptions C16_residue_sets_bounded.

(* what a single modulo() call enumerates, in closed form (multiset coefficients / products) *)
Theorem C16_local_rep : forall S n, zlen (cwr_sums S n) = mchoose (length S) n.
Proof. exact local_cost_rep. Qed.
Print Assumptions C16_local_rep.
Theorem C16_local_rrep : forall S n, zlen (cwr_upto S n) = mchoose_upto (length S) n.
Proof. exact local_cost_rrep. Qed.
Print Assumptions C16_local_rrep.
Theorem C16_local_cat : forall ls, zlen (prod_sums ls) = zprod (map zlen ls).
Proof. exact local_cost_cat. Qed.
Print Assumptions C16_local_cat.

(* once the capacity is at least the divisor, result and cost depend on capacity mod divisor only *)
Theorem C16_capacity_sweep : forall c d k k', 1 <= d -> d <= k -> d <= k' -> k mod d = k' mod d ->
  omod (Rep c k) d = omod (Rep c k') d /\ cost_mod (Rep c k) d = cost_mod (Rep c k') d /\
  omod (RRep c k) d = omod (RRep c k') d /\ cost_mod (RRep c k) d = cost_mod (RRep c k') d.
Proof. exact capacity_sweep. Qed.
Print Assumptions C16_capacity_sweep.

(* every capacity behaves exactly like one below twice the divisor *)
Theorem C16_count_clamp : forall c d k, 1 <= d -> 0 <= k ->
  0 <= equiv_k k d < 2 * d /\
  omod (Rep c k) d = omod (Rep c (equiv_k k d)) d /\ cost_mod (Rep c k) d = cost_mod (Rep c (equiv_k k d)) d /\
  omod (RRep c k) d = omod (RRep c (equiv_k k d)) d /\ cost_mod (RRep c k) d = cost_mod (RRep c (equiv_k k d)) d.
Proof. exact count_clamp. Qed.
Print Assumptions C16_count_clamp.

(* whole trees: replacing every count by its reduced value changes neither the answer nor the enumeration cost,
   and all remaining counts are below twice the divisor that reaches their node *)
Theorem C16_clamp_tree : forall t, wf t -> forall d, 1 <= d ->
  omod (clamp t d) d = omod t d /\ cost_mod (clamp t d) d = cost_mod t d /\ counts_small (clamp t d) d.
Proof. intros t W d Hd. exact (conj (clamp_omod t W d Hd) (conj (clamp_cost t W d Hd) (clamp_small t W d Hd))). Qed.
Print Assumptions C16_clamp_tree.

Theorem C16_cost_eval : forall t, wf t -> forall d, 1 <= d -> cost_modf t d = cost_mod t d.
Proof. exact cost_modf_eq. Qed.
Print Assumptions C16_cost_eval.

(* array elements of DSDL types have a single residue modulo the byte: one multiset per repetition count *)
Theorem C16_byte_aligned_single_residue : forall t, wft t = true -> align t = 8 -> omod (bls t) 8 = [0].
Proof. exact aligned8_mod8. Qed.
Print Assumptions C16_byte_aligned_single_residue.

(* pairwise (left-nested) aggregation: every concatenation node of a type's set - and of the offsets of its fields - has at
   most two operands, and one modulo() call on such a node enumerates at most divisor^2 tuples *)
Theorem C16_pairwise_aggregation : forall t, binary_cats (bls t).
Proof. exact bls_binary. Qed.
Print Assumptions C16_pairwise_aggregation.

Theorem C16_pairwise_offsets : forall fs, Forall (fun f => binary_cats (bls (snd f))) fs -> forall acc, binary_cats acc ->
  Forall (fun fo => binary_cats (snd fo)) (struct_offsets_from acc fs).
Proof. exact offsets_binary. Qed.
Print Assumptions C16_pairwise_offsets.

Theorem C16_pair_bound : forall a b d, wf a -> wf b -> 1 <= d -> local_cost KCat [zlen (omod a d); zlen (omod b d)] 0 d <= d * d.
Proof. exact cat2_local_bound. Qed.
Print Assumptions C16_pair_bound.

(* a concrete bound: for every type that DSDL text can express (an array element is never itself an array), a byte-alignment
   query on the type's set enumerates at most 64 tuples per node of its operator tree - capacities and extents do not occur *)
Theorem C16_byte_alignment_linear : forall t, wft t = true -> flat t -> cost_mod (bls t) 8 <= 64 * size_op (bls t).
Proof. exact byte_alignment_linear. Qed.
Print Assumptions C16_byte_alignment_linear.

Theorem C16_light_trees : forall t, wf t -> light t -> cost_mod t 8 <= 64 * size_op t.
Proof. exact light_cost. Qed.
Print Assumptions C16_light_trees.

Example C16_nonvacuous :
  let t := bls (TVar (TStruct [110] [(Some [97], TVar (TPrim (PUInt 8 Sat)) (2 ^ 63))]) (2 ^ 63)) in
  cost_modf t 32 = cost_modf (clamp t 32) 32 /\ cost_modf t 32 = 58950 /\ omodf t 32 = [0; 8; 16; 24].
Proof.
  intros t.
  assert (wf t) as W by (apply wfb_wf; vm_compute; reflexivity).
  assert (wf (clamp t 32)) as Wc by (apply wfb_wf; vm_compute; reflexivity).
  assert (1 <= 32) as H32 by discriminate.
  destruct (C16_clamp_tree t W 32 H32) as (_ & E & _).
  split; [|split; [|vm_compute; reflexivity]].
  - exact (eq_trans (C16_cost_eval t W 32 H32) (eq_trans (eq_sym E) (eq_sym (C16_cost_eval _ Wc 32 H32)))).
  - (* unfolding [mchoose_upto 4 32] (the outer array: 4 residues, count 32) takes as many steps as its value, 58905:
       it is isolated by rewriting and computed by rows; the rest is small and evaluated *)
    set (c := Pad (Cat [Leaf [64]; RRep (Leaf [8]) (2 ^ 63)]) 8).
    change (cost_modf t 32) with (cost_modf (Cat [Leaf [64]; RRep c (2 ^ 63)]) 32).
    rewrite cost_modf_Cat2, cost_modf_RRep.
    assert (length (omodf c 32) = 4%nat) as -> by (vm_compute; reflexivity).
    assert (Z.to_nat (equiv_k (2 ^ 63) 32) = 32%nat) as -> by (vm_compute; reflexivity).
    rewrite mchoose_upto_row. vm_compute. reflexivity.
Qed.
