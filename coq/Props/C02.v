(* C02 - Every type's layout (lengths, alignment, extent, prefixes) is the Specification. Statements only. *)
From Coq Require Import ZArith List Bool.
From PV Require Import BLS.Model BLS.Den Layout.Types Layout.Spec Layout.Proofs Layout.ProofsSpec.
Import ListNotations.
Open Scope Z_scope.

(* the operator tree built by the constructors denotes exactly the lengths the Specification assigns (LenSpec is
   written positionally, without operator trees) - for every type expression, every nesting, every capacity *)
Theorem C02_spec : forall t, wft t = true -> forall x, Den (bls t) x <-> LenSpec t x.
Proof. exact bls_is_spec. Qed.
Print Assumptions C02_spec.

Theorem C02_wf : forall t, wft t = true -> wf (bls t) /\ 0 <= omax (bls t).
Proof. exact wf_bls. Qed.
Print Assumptions C02_wf.

Theorem C02_align_divides : forall t, wft t = true -> forall x, Den (bls t) x -> (align t | x).
Proof. exact align_divides. Qed.
Print Assumptions C02_align_divides.

Theorem C02_align_values : forall t, (align t = 1 \/ align t = 8) /\ (wft t = true -> is_composite t = true -> align t = 8).
Proof. intros t. split; [exact (align_values t)|exact (composite_align t)]. Qed.
Print Assumptions C02_align_values.

(* array length prefix: the code's formula is "the smallest of 8/16/32/64 bits that can hold the capacity" *)
Theorem C02_prefix_width : forall e n, 1 <= n -> bitlen n <= 64 ->
  prefix_width (align e) n = spec_prefix n /\
  (n < 2 ^ 64 -> n < 2 ^ spec_prefix n /\ forall w, In w [8; 16; 32; 64] -> n < 2 ^ w -> spec_prefix n <= w).
Proof. intros e n H1 H2. split; [exact (prefix_width_eq e n H1 H2)|exact (spec_prefix_least n)]. Qed.
Print Assumptions C02_prefix_width.

(* union tag: "the smallest of 8/16/32/64 bits that can hold the largest variant index" *)
Theorem C02_tag_width : forall fs, 2 <= Z.of_nat (length fs) -> bitlen (Z.of_nat (length fs) - 1) <= 64 ->
  union_tag_width fs = spec_tag (Z.of_nat (length fs)) /\
  (Z.of_nat (length fs) <= 2 ^ 64 -> Z.of_nat (length fs) <= 2 ^ spec_tag (Z.of_nat (length fs)) /\
     forall w, In w [8; 16; 32; 64] -> Z.of_nat (length fs) <= 2 ^ w -> spec_tag (Z.of_nat (length fs)) <= w).
Proof. intros fs H1 H2. split; [exact (union_tag_eq fs H1 H2)|exact (spec_tag_least _)]. Qed.
Print Assumptions C02_tag_width.

Theorem C02_sealed_extent : forall t, wft t = true -> (match t with TDelim _ _ => False | _ => True end) ->
  extent t = omax (bls t) /\ Den (bls t) (extent t) /\ forall x, Den (bls t) x -> x <= extent t.
Proof. exact sealed_extent. Qed.
Print Assumptions C02_sealed_extent.

(* a delimited composite's set is header + {0, 8, ..., extent}, irrespective of its fields *)
Theorem C02_delimited : forall i ext, wft (TDelim i ext) = true ->
  forall x, Den (bls (TDelim i ext)) x <-> exists j, 0 <= j <= ext / 8 /\ x = 32 + 8 * j.
Proof. exact delimited_spec. Qed.
Print Assumptions C02_delimited.

Theorem C02_extent_rules : forall i ext, wft (TDelim i ext) = true <->
  (wft i = true /\ (exists nm fs, i = TStruct nm fs \/ i = TUnion nm fs) /\ (8 | ext) /\ extent i <= ext).
Proof. exact extent_rules. Qed.
Print Assumptions C02_extent_rules.

(* non-vacuity: a nested type with sub-byte fields, a variable array at the 255/256 prefix boundary and a delimited member *)
Definition ex_inner : ty := TStruct [110] [(Some [97], TPrim (PUInt 3 Sat)); (Some [98], TVar (TPrim (PSInt 16)) 256)].
Definition ex_outer : ty := TUnion [111] [(Some [120], TDelim ex_inner 8192); (Some [121], TFix (TPrim PBool) 9); (Some [122], TVar ex_inner 255)].
Example C02_nonvacuous : wft ex_outer = true /\ omin (bls ex_outer) = 16 /\ omodf (bls ex_outer) 16 = [0; 8] /\ prefix_width 1 256 = 16 /\ prefix_width 1 255 = 8.
Proof. vm_compute. repeat split; reflexivity. Qed.
