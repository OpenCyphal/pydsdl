(* C08 - Field offsets and in-language layout intrinsics equal the real bit positions. Statements only. *)
From Coq Require Import ZArith List Bool.
From PV Require Import BLS.Model BLS.Den Layout.Types Layout.Spec Layout.ProofsSpec Layout.Offsets Layout.OffsetsProofs
  Serdes.Model Serdes.WriterProofs Serdes.Spec Serdes.OffsetsSound.
Import ListNotations.
Open Scope Z_scope.

(* every field exactly once, in order; the offset set of field i is exactly the set of positions at which it can start:
   base padded to 8, then the preceding fields laid out one after another (each aligned, any of its lengths), then
   aligned for field i itself - for every structure and every base offset set *)
Theorem C08_struct : forall nm fs B, wft (TStruct nm fs) = true ->
  map fst (field_offsets (TStruct nm fs) B) = fs /\
  forall i f O, nth_error (field_offsets (TStruct nm fs) B) i = Some (f, O) -> forall x, Den O x <-> StructOff fs (Den B) i x.
Proof. exact struct_offsets_spec. Qed.
Print Assumptions C08_struct.

(* all variants of a union share base (padded) + tag width *)
Theorem C08_union : forall nm fs B, wft (TUnion nm fs) = true ->
  map fst (field_offsets (TUnion nm fs) B) = fs /\
  forall f O, In (f, O) (field_offsets (TUnion nm fs) B) -> forall x, Den O x <-> UnionOff fs (Den B) x.
Proof. exact union_offsets_spec. Qed.
Print Assumptions C08_union.

(* a delimited type adds its 32-bit header and delegates to the inner type *)
Theorem C08_delimited : forall i ext B, wft (TDelim i ext) = true ->
  field_offsets (TDelim i ext) B = field_offsets i (Cat [B; Leaf [32]]) /\
  forall x, Den (Cat [B; Leaf [32]]) x <-> exists b, Den B b /\ x = b + 32.
Proof. exact delim_offsets_spec. Qed.
Print Assumptions C08_delimited.

Theorem C08_elements : forall e n B, wft (TFix e n) = true ->
  map fst (elem_offsets (TFix e n) B) = map Z.of_nat (seq 0 (Z.to_nat n)) /\
  forall i O, In (i, O) (elem_offsets (TFix e n) B) -> 0 <= i < n /\ forall x, Den O x <-> ElemOff e (Den B) i x.
Proof. exact elem_offsets_spec. Qed.
Print Assumptions C08_elements.

(* `_offset_` in a structure = lengths of everything before that point, before any padding for the next field *)
Theorem C08_offset_intrinsic_struct : forall fs, forallb (fun f => wft (snd f)) fs = true ->
  forall x, Den (offset_intrinsic false fs) x <-> thread_ok LenSpec spec_align fs 0 x.
Proof. exact offset_intrinsic_struct. Qed.
Print Assumptions C08_offset_intrinsic_struct.

(* `_offset_` after the last variant of a union = tag + union of the variants *)
Theorem C08_offset_intrinsic_union : forall fs, forallb (fun f => wft (snd f)) fs = true -> 2 <= Z.of_nat (length fs) ->
  bitlen (Z.of_nat (length fs) - 1) <= 64 ->
  forall x, Den (offset_intrinsic true fs) x <-> exists l, variant_ok LenSpec fs l /\ x = spec_tag (Z.of_nat (length fs)) + l.
Proof. exact offset_intrinsic_union. Qed.
Print Assumptions C08_offset_intrinsic_union.

(* T._bit_length_ enumerates exactly the Specification's lengths of T; T._extent_ is extent T (by definition of the model) *)
Theorem C08_attrs : forall t, wft t = true -> forall x, In x (oexpand (bls t)) <-> LenSpec t x.
Proof. exact oexpand_bls_spec. Qed.
Print Assumptions C08_attrs.

Theorem C08_offsets_wf : forall fs, forallb (fun f => wft (snd f)) fs = true -> forall acc, wf acc ->
  Forall (fun fo => wf (snd fo)) (struct_offsets_from acc fs).
Proof. exact wf_sof. Qed.
Print Assumptions C08_offsets_wf.

Definition ex_s : ty := TStruct [115] [(Some [97], TPrim (PUInt 3 Sat)); (Some [98], TVar (TPrim (PUInt 8 Sat)) 2); (None, TVoid 5); (Some [99], TStruct [116] [])].
Example C08_nonvacuous : wft ex_s = true /\
  map (fun fo => oexpandf (snd fo)) (field_offsets ex_s (Leaf [1; 16])) = [[8; 16]; [11; 19]; [19; 27; 35; 43]; [24; 32; 40; 48]].
Proof. vm_compute. split; reflexivity. Qed.

(* ---- soundness of the offsets with respect to the codec (proofs in Serdes/OffsetsSound.v) ----
   [ser_fields_tr] is [ser_fields] of the codec model (Serdes/Model.v) instrumented to record the writer's bit offset at the
   moment every field is written (after its alignment step); [WR w bs]: writer w holds exactly the bit list bs.  The enclosing
   composite / array / top level aligns the writer to 8 before a nested composite is written (w_align_to w 8). *)

(* structures: the instrumented serializer is the serializer; every field gets a recorded start; the start of field i is an
   element of the i-th offset set, for every valid value and every base set B containing the writer's bit length *)
Theorem C08_sound_wrt_codec : forall nm fs B vs w bs,
  wft (TStruct nm fs) = true -> serializable (TStruct nm fs) = true -> validb (TStruct nm fs) (VStruct vs) = true ->
  WR w bs -> Den B (zlen bs) ->
  let tr := snd (ser_fields_tr fs vs (w_align_to w 8)) in
  fst (ser_fields_tr fs vs (w_align_to w 8)) = ser_fields ser fs vs (w_align_to w 8) /\
  length tr = length fs /\
  forall i f O x, nth_error (field_offsets (TStruct nm fs) B) i = Some (f, O) -> nth_error tr i = Some x -> Den O x.
Proof. exact struct_offsets_sound. Qed.
Print Assumptions C08_sound_wrt_codec.

(* unions: the selected variant is written right after the tag, at an element of the (common) offset set *)
Theorem C08_sound_wrt_codec_union : forall nm fs B k w bs f O,
  wft (TUnion nm fs) = true -> WR w bs -> Den B (zlen bs) -> In (f, O) (field_offsets (TUnion nm fs) B) ->
  Den O (woff (write_bits (w_align_to w 8) k (union_tag_width fs))).
Proof. exact union_offsets_sound. Qed.
Print Assumptions C08_sound_wrt_codec_union.

(* delimited structures: the inner fields (serialized through a temporary writer, offsets from 0) are copied right after the
   header: field i lands at (offset after the header) + (its offset in the temporary writer), an element of the i-th offset set *)
Theorem C08_sound_wrt_codec_delimited : forall nm fs ext B vs w bs,
  wft (TDelim (TStruct nm fs) ext) = true -> serializable (TStruct nm fs) = true -> validb (TStruct nm fs) (VStruct vs) = true ->
  WR w bs -> Den B (zlen bs) ->
  let after_header := woff (write_bits (w_align_to w 8) 0 (header_width (align (TStruct nm fs)))) in
  let tr := snd (ser_fields_tr fs vs w_new) in
  length tr = length fs /\
  forall i f O x, nth_error (field_offsets (TDelim (TStruct nm fs) ext) B) i = Some (f, O) -> nth_error tr i = Some x -> Den O (after_header + x).
Proof. exact delim_offsets_sound. Qed.
Print Assumptions C08_sound_wrt_codec_delimited.

(* non-vacuity: the structure of C08_nonvacuous written at bit 16 (in B = {1, 16}): the recorded starts lie in the computed sets *)
Example C08_sound_nonvacuous :
  snd (ser_fields_tr [(Some [97], TPrim (PUInt 3 Sat)); (Some [98], TVar (TPrim (PUInt 8 Sat)) 2); (None, TVoid 5); (Some [99], TStruct [116] [])]
         [VInt 5; VList [VInt 1]; VStruct []] (w_align_to (write_bits w_new 0 16) 8)) = [16; 19; 35; 40].
Proof. vm_compute. reflexivity. Qed.
