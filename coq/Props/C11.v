(* C11 - Port-ID and minor-version consistency rules hold for every set of definitions. Statements only. *)
From Coq Require Import ZArith List Permutation.
From PV Require Import Namespace.CrossRules Namespace.CrossProofs.
Import ListNotations.
Open Scope Z_scope.

(* the double loop of _ensure_no_fixed_port_id_collisions accepts exactly the sets in which two definitions of the
   same kind share a port-ID only if they have the same name and the same major version or a major of 0 on a side *)
Theorem C11_ports : forall ds, wf ds ->
  (check_ports ds = true <->
   forall a b, In a ds -> In b ds -> same_kind a b -> forall p, port a = Some p -> port b = Some p ->
   name a = name b /\ (major a = major b \/ major a = 0 \/ major b = 0)).
Proof. exact check_ports_spec. Qed.
Print Assumptions C11_ports.

(* grouping by name and major + the pairwise function, under "no two definitions share name and version" *)
Theorem C11_minor : forall ds, VersionsUnique ds ->
  (check_minor ds = true <->
   forall a b, In a ds -> In b ds -> name a = name b /\ major a = major b -> minor a <> minor b ->
   same_kind a b /\ port_rule a b /\ (1 <= major a -> lays_equal a b)).
Proof. exact check_minor_spec_unique. Qed.
Print Assumptions C11_minor.

(* without that hypothesis: two distinct definitions of one name and version raise
   DataTypeCollisionError (see F5a) *)
Theorem C11_minor_full : forall ds, check_minor ds = true <-> VersionsUnique ds /\ MinorsConform ds.
Proof. exact check_minor_spec. Qed.
Print Assumptions C11_minor_full.

(* the loops of the code, read literally: every two distinct objects of one (name, major) group *)
Theorem C11_minor_loops : forall ds,
  check_minor ds = true <->
  forall a b, two_of ds a b -> same_series a b -> minor a <> minor b /\ pair_ok a b = true.
Proof. exact check_minor_positions. Qed.
Print Assumptions C11_minor_loops.

Theorem C11_pairwise : forall a b, minor a <> minor b -> (pair_ok a b = true <-> compatible a b).
Proof. exact pair_ok_spec. Qed.
Print Assumptions C11_pairwise.

(* every violating set is rejected and every conforming set is accepted *)
Theorem C11_iff : forall direct transitive, wf direct ->
  (run direct transitive = Accept <-> Conforming direct (transitive ++ direct)).
Proof. exact run_spec. Qed.
Print Assumptions C11_iff.

(* the verdict does not depend on the order in which the definitions are listed (the lists come out of Python sets) *)
Theorem C11_order_irrelevant : forall d d' t t', Permutation d d' -> Permutation t t' -> run d t = run d' t'.
Proof. exact run_perm. Qed.
Print Assumptions C11_order_irrelevant.

(* non-vacuity: a conforming set with a port added in a newer minor, a major-0 sibling sharing the port and a
   service with a delimited response; and a violating one *)
Definition nA : list Z := [110; 115; 46; 65].
Definition nB : list Z := [110; 115; 46; 66].
Definition ex_ok : list summary :=
  [ mkSum nA 1 0 (Msg (mkLay 16 true)) None; mkSum nA 1 1 (Msg (mkLay 16 true)) (Some 7);
    mkSum nA 0 1 (Msg (mkLay 8 false)) (Some 7);
    mkSum nB 1 0 (Svc (mkLay 8 true) (mkLay 64 false)) (Some 7); mkSum nB 1 2 (Svc (mkLay 8 true) (mkLay 64 false)) (Some 7) ].
Example C11_nonvacuous :
  wf ex_ok /\ Conforming ex_ok ([] ++ ex_ok) /\
  run [mkSum nA 1 0 (Msg (mkLay 16 true)) (Some 7); mkSum nA 1 1 (Msg (mkLay 16 true)) None] [] = Reject.
Proof.
  assert (W : wf ex_ok). { intros a H. simpl in H. repeat (destruct H as [<-|H]; [simpl; discriminate|]). destruct H. }
  split; [exact W|]. split; [|vm_compute; reflexivity].
  apply (proj1 (run_spec ex_ok [] W)). vm_compute. reflexivity.
Qed.
