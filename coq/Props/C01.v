(* C01 - Bit length set algebra is exact for every composition and every divisor. Statements only. *)
From Coq Require Import ZArith List Sorted.
From PV Require Import BLS.Model BLS.Den BLS.Proofs BLS.ProofsMod.
Import ListNotations.
Open Scope Z_scope.

Theorem C01_nonneg : forall t, wf t -> forall x, Den t x -> 0 <= x.
Proof. exact Den_nonneg. Qed.
Print Assumptions C01_nonneg.

Theorem C01_min : forall t, wf t -> Den t (omin t) /\ forall x, Den t x -> omin t <= x.
Proof. exact omin_ok. Qed.
Print Assumptions C01_min.

Theorem C01_max : forall t, wf t -> Den t (omax t) /\ forall x, Den t x -> x <= omax t.
Proof. exact omax_ok. Qed.
Print Assumptions C01_max.

Theorem C01_fixed : forall t, wf t -> (fixed t = true <-> forall x y, Den t x -> Den t y -> x = y).
Proof. exact fixed_spec. Qed.
Print Assumptions C01_fixed.

(* every divisor d >= 1, every repetition count k >= 0: no bound anywhere *)
Theorem C01_mod : forall t, wf t -> forall d, 1 <= d -> forall r, In r (omod t d) <-> exists x, Den t x /\ r = x mod d.
Proof. exact omod_spec. Qed.
Print Assumptions C01_mod.

Theorem C01_mod_sorted : forall t d, StronglySorted Z.lt (omod t d).
Proof. exact omod_sorted. Qed.
Print Assumptions C01_mod_sorted.

Theorem C01_aligned : forall t d, wf t -> 1 <= d -> (is_aligned t d = true <-> forall x, Den t x -> (d | x)).
Proof. exact is_aligned_spec. Qed.
Print Assumptions C01_aligned.

Theorem C01_expand : forall t, wf t -> (forall x, In x (oexpand t) <-> Den t x) /\ NoDup (oexpand t).
Proof. intros t H. split; [exact (oexpand_spec t H)|exact (oexpand_nodup t)]. Qed.
Print Assumptions C01_expand.

(* the memoisation wrapper is transparent for every history of queries *)
Theorem C01_memo : forall t qs, mrun t memo0 qs = map (direct t) qs.
Proof. exact memo_transparent. Qed.
Print Assumptions C01_memo.

(* internal assertions of the solver never fire *)
Theorem C01_asserts_pad : forall c a d x, wf c -> 1 <= a -> 1 <= d -> In x (omod c (Z.lcm a d)) -> x <= omax (Pad c a) /\ x < Z.lcm a d.
Proof. exact pad_assert_ok. Qed.
Print Assumptions C01_asserts_pad.

Theorem C01_asserts_k : forall k d, 1 <= d -> 0 <= k -> k mod d = equiv_k k d mod d.
Proof. exact equiv_k_assert_ok. Qed.
Print Assumptions C01_asserts_k.

(* the evaluators used by the correspondence check are the model *)
Theorem C01_fast_mod : forall t, wf t -> forall d, 1 <= d -> omodf t d = omod t d.
Proof. exact omodf_eq. Qed.
Print Assumptions C01_fast_mod.

Theorem C01_fast_expand : forall t, wf t -> oexpandf t = oexpand t.
Proof. exact oexpandf_eq. Qed.
Print Assumptions C01_fast_expand.

Theorem C01_wfb : forall t, wfb t = true -> wf t.
Proof. exact wfb_wf. Qed.
Print Assumptions C01_wfb.

(* non-vacuity: a nested tree with a count far beyond what can be expanded satisfies the hypotheses,
   and the model computes on it *)
Definition ex_tree : op := Cat [Leaf [32]; RRep (Pad (Cat [Leaf [16]; RRep (Uni [Leaf [8]; Leaf [3; 5]]) 256]) 8) (2 ^ 63)].
Example C01_nonvacuous : wf ex_tree /\ omodf ex_tree 32 = [0; 8; 16; 24] /\ omax ex_tree = 32 + (pad 8 (16 + 8 * 256)) * 2 ^ 63.
Proof.
  split; [apply wfb_wf; vm_compute; reflexivity|]. split; [|vm_compute; reflexivity].
  (* the inner repetition (residues {0, 3, 5, 8}, 32 rounds of 128 sums) holds all 32 residues after 6 rounds *)
  unfold ex_tree. cbn [omodf fold_right]. change (Z.to_nat (equiv_k 256 (Z.lcm 8 32))) with (26 + 6)%nat.
  rewrite iter_sumset_mod_stable by (vm_compute; reflexivity). vm_compute. reflexivity.
Qed.
