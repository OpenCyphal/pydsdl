(* C18 - Model objects are immutable values with a sound equality/hash contract. Statements only.
   Aliasing of returned lists and pickling are properties of Python objects and are checked on the implementation only. *)
From Coq Require Import ZArith List Bool.
From PV Require Import BLS.Model BLS.Den BLS.ProofsMod Layout.Types EqHash.Model EqHash.Proofs.
Import ListNotations.
Open Scope Z_scope.

Theorem C18_refl : forall a, ty_eq a a = true.
Proof. exact ty_eq_refl. Qed.
Print Assumptions C18_refl.

Theorem C18_sym : forall a b, ty_eq a b = ty_eq b a.
Proof. exact ty_eq_sym. Qed.
Print Assumptions C18_sym.

Theorem C18_trans : forall a b c, ty_eq a b = true -> ty_eq b c = true -> ty_eq a c = true.
Proof. exact ty_eq_trans. Qed.
Print Assumptions C18_trans.

(* equal objects have equal hashes *)
Theorem C18_hash : forall a b, ty_eq a b = true -> ty_hash a = ty_hash b.
Proof. exact ty_eq_hash. Qed.
Print Assumptions C18_hash.

(* equality distinguishes types that differ in kind, normalised string form or (min, max, residues mod 32) of the set *)
Theorem C18_discriminates : forall a b, ty_eq a b = true <->
  cls a = cls b /\ show a = show b /\ omin (bls a) = omin (bls b) /\ omax (bls a) = omax (bls b) /\ omod (bls a) 32 = omod (bls b) 32.
Proof. exact ty_eq_spec. Qed.
Print Assumptions C18_discriminates.

(* BitLengthSet equality never reports two equal sets as different, and its hash agrees (uses the C01 theorems) *)
Theorem C18_bls_no_false_neg : forall s s', wf s -> wf s' -> (forall x, Den s x <-> Den s' x) ->
  approx_eq s s' = true /\ bls_hash s = bls_hash s'.
Proof. exact approx_eq_complete. Qed.
Print Assumptions C18_bls_no_false_neg.

Theorem C18_bls_equivalence : forall a b c, approx_eq a a = true /\ approx_eq a b = approx_eq b a /\
  (approx_eq a b = true -> approx_eq b c = true -> approx_eq a c = true) /\ (approx_eq a b = true -> bls_hash a = bls_hash b).
Proof. exact approx_eq_equiv. Qed.
Print Assumptions C18_bls_equivalence.

Theorem C18_types_no_false_neg : forall a b, wft a = true -> wft b = true -> cls a = cls b -> show a = show b ->
  (forall x, Den (bls a) x <-> Den (bls b) x) -> ty_eq a b = true.
Proof. exact ty_eq_complete. Qed.
Print Assumptions C18_types_no_false_neg.

Theorem C18_attributes : forall a b c, field_eq a a = true /\ field_eq a b = field_eq b a /\
  (field_eq a b = true -> field_eq b c = true -> field_eq a c = true) /\
  (field_eq a b = true -> ty_hash (snd a) = ty_hash (snd b) /\ fst a = fst b).
Proof. exact field_eq_props. Qed.
Print Assumptions C18_attributes.

Example C18_nonvacuous :
  ty_eq (TVar (TPrim (PUInt 8 Sat)) 255) (TVar (TPrim (PUInt 8 Sat)) 255) = true /\
  ty_eq (TVar (TPrim (PUInt 8 Sat)) 255) (TVar (TPrim (PUInt 8 Sat)) 256) = false /\
  ty_eq (TStruct [110] [(Some [97], TPrim (PUInt 8 Sat))]) (TStruct [110] [(Some [98], TPrim (PSInt 8))]) = true /\
  ty_eq (TStruct [110] []) (TUnion [110] [(Some [97], TVoid 0); (Some [98], TVoid 0)]) = false.
Proof. split; [apply C18_refl|]. vm_compute. repeat split; reflexivity. Qed.
