(* C13 - Bad input yields InvalidDefinitionError with a path, never a crash/InternalError.  Statements only.

   PARTIAL BY NATURE: the theorems cover the layers that are modelled - expression evaluation (C04's model), the
   exception handlers inside Rational._generic_arithmetic and _parse_string_literal, and the exception funnel
   parse -> DSDLDefinition.read -> _read_definitions.  The PEG engine on arbitrary text, CPython's recursion limit and
   the file system are not modelled; that part of the property is searched on the implementation side only
   (harness/props/c13.py) and is where the open findings are (see C13_unmodelled_leaks_refuted). *)
From Coq Require Import ZArith List.
From PV Require Import Expr.Values Expr.Syntax Expr.Literals Expr.Sem Expr.Eval Outcome.Model Outcome.Proofs.
Import ListNotations.

(* a property of `predicted`, whatever the evaluation returns: the outcome classes it lists are a model or an invalid
   definition; a rejection reaches the caller as InvalidDefinitionError with the path of the file *)
Theorem C13_no_internal_partial : forall g e acc o st,
  In o (predicted (eval g e) acc) ->
  (o = OValue \/ o = OInvalid) /\ surfaced st XInvalid = (OInvalid, true).
Proof. intros g e acc o st H. split; [eapply predicted_classes; eassumption|apply rejection_surfaces]. Qed.
Print Assumptions C13_no_internal_partial.

(* the arithmetic layer: whatever binary floating point does (any function fl), only InvalidOperandError leaves
   Rational._generic_arithmetic, and never a complex value *)
Theorem C13_arith_handlers : forall fl o p q,
  is_arith o = true ->
  (forall x, generic_arithmetic fl HCurrent o p q = RExc x -> x = XInvalid)
  /\ generic_arithmetic fl HCurrent o p q <> RComplexVal.
Proof. intros. split; [intros x; apply arith_only_invalid; assumption|apply arith_never_complex]. Qed.
Print Assumptions C13_arith_handlers.

(* ... and the evaluation model of C04 classifies exactly these behaviours (value / invalid / unspecified float path) *)
Theorem C13_arith_agrees : forall fl o p q, is_arith o = true ->
  match meth_rat o p (VRat q) with
  | DOk v => exists x, generic_arithmetic fl HCurrent o p q = RVal x /\ v = qnorm x
  | DInvalid => generic_arithmetic fl HCurrent o p q = RExc XInvalid
  | DUnspec => (exists x, generic_arithmetic fl HCurrent o p q = RVal x) \/ generic_arithmetic fl HCurrent o p q = RExc XInvalid
  | DUndef => False
  end.
Proof. exact arith_agrees. Qed.
Print Assumptions C13_arith_agrees.

(* string literals: only DSDLSyntaxError leaves the escape decoder, exactly when the literal model has no value *)
Theorem C13_literal_handlers : forall l st,
  (forall x, str_run_x HCurrent st l = Some x -> x = XInvalid)
  /\ (forall out, str_run_x HCurrent st l = None <-> str_run st l out <> None).
Proof. intros. split; [intros x; apply str_only_invalid|intros out; apply str_agrees]. Qed.
Print Assumptions C13_literal_handlers.

(* the funnel: which exceptions raised at which stage surface as what *)
Theorem C13_funnel : forall st x,
  (fst (surfaced st x) = OInvalid <-> x = XInvalid \/ (handled_in_parser x = true /\ st <> SVisit))
  /\ (fst (surfaced st x) = OOther <-> x = XSystemExit)
  /\ (fst (surfaced st x) = OInternal <-> x <> XInvalid /\ x <> XSystemExit /\ (handled_in_parser x = true -> st = SVisit))
  /\ (fst (surfaced st x) <> OOther -> snd (surfaced st x) = true).
Proof.
  intros. split; [apply funnel_invalid|]. split; [apply funnel_other|]. split; [apply funnel_internal|apply funnel_path].
Qed.
Print Assumptions C13_funnel.

(* regression of F4 (repaired): without the handlers added by the repair the same inputs surface as InternalError *)
Theorem C13_before_F4_refuted :
  (forall fl p q, is_int q = false -> fl p q = FComplex -> generic_arithmetic fl HBeforeF4 BPow p q = RExc XValueError)
  /\ (forall fl p q, is_int q = false -> fl p q = FOverflow -> generic_arithmetic fl HBeforeF4 BPow p q = RExc XOverflow)
  /\ surfaced SVisit XValueError = (OInternal, true) /\ surfaced SVisit XOverflow = (OInternal, true).
Proof. exact before_F4_leaks. Qed.
Print Assumptions C13_before_F4_refuted.

(* failure modes of the unmodelled layers.  Repaired (F17, F19): a RecursionError of the PEG engine and a file
   that is not UTF-8 surface as InvalidDefinitionError with the path. *)
Theorem C13_repaired_leaks :
  surfaced SGrammar XRecursion = (OInvalid, true)
  /\ surfaced SFlush XRecursion = (OInvalid, true)
  /\ surfaced_outside_parser XUnicodeDecode = (OInvalid, true).
Proof. exact repaired_leaks. Qed.
Print Assumptions C13_repaired_leaks.

(* What the funnel still does not handle: a RecursionError while visiting or in finalize becomes InternalError, an
   OSError while the file is read becomes InternalError, an exception raised outside every try block of
   _read_definitions reaches the caller raw, and a ValueError / OverflowError / MemoryError raised inside a visitor
   or in finalize becomes InternalError.  Witnesses on the implementation side (open findings):
     - a structure with 200 fields: raw RecursionError while hashing the new composite (F20);
     - "@print 10**4300": ValueError of CPython's 4300-digit limit of int <-> str conversion, in a visitor; the same
       from error messages built in finalize ("uint8 x / @extent 8*10**5000+1");
     - "uint8[2**63] x / @print _offset_": OverflowError (or MemoryError) of the numerical expansion behind _offset_.
   So the unrestricted statement of C13 is false of the current tree: this is its refutation in terms of the funnel. *)
Theorem C13_unmodelled_leaks_refuted :
  surfaced SVisit XRecursion = (OInternal, true)
  /\ surfaced_outside_parser XOSError = (OInternal, true)
  /\ surfaced_outside_parser XRecursion = (OInternal, true)
  /\ surfaced_outside_funnel XRecursion = (OOther, false)
  /\ surfaced SVisit XValueError = (OInternal, true)
  /\ surfaced_outside_parser XValueError = (OInternal, true)
  /\ surfaced SVisit XOverflow = (OInternal, true)
  /\ surfaced SVisit XMemoryOrSystem = (OInternal, true).
Proof. exact remaining_leaks. Qed.
Print Assumptions C13_unmodelled_leaks_refuted.

(* non-vacuity *)
Example C13_nonvacuous :
  exists g e, eval g e = Rej /\ In OInvalid (predicted (eval g e) (fun _ => true)).
Proof.
  exists [], (EBin BDiv (ELit (LInt [49%Z])) (ELit (LInt [48%Z]))). split; [vm_compute; reflexivity|]. vm_compute. left. reflexivity.
Qed.
