(* C12 - Constants are always compliant with their declared type. Statements only. *)
From Coq Require Import QArith List.
From PV Require Import Expr.Values Const.Model Const.Spec Const.Proofs.
Import ListNotations.

(* inclusive_value_range of the integer types is the textbook range, for every width (no upper bound on w needed) *)
Theorem C12_int_ranges : forall w tr,
  value_range (TUInt w tr) = Some (inject_Z 0, inject_Z (2 ^ w - 1))
  /\ ((1 <= w)%Z -> value_range (TSInt w tr) = Some (inject_Z (- 2 ^ (w - 1)), inject_Z (2 ^ (w - 1) - 1))).
Proof. intros. split; [apply int_ranges_u|apply int_ranges_s]. Qed.
Print Assumptions C12_int_ranges.

(* the float limit computed by the code's formula is the largest finite IEEE 754 value, an exact integer *)
Theorem C12_float_ranges : forall w m, float_mag w = Some m ->
  exists emax p, float_params w = Some (emax, p)
    /\ m == inject_Z (2 ^ emax) * (2 - Qpower 2 (- p))
    /\ m = inject_Z ((2 ^ (p + 1) - 1) * 2 ^ (emax - p)).
Proof. exact float_ranges. Qed.
Print Assumptions C12_float_ranges.

(* accepted if and only if the declarative rules hold - every width, signedness, cast mode, both sides of every boundary *)
Theorem C12_accept_iff : forall t v v', ctype_ok t = true -> (const_check t v = COk v' <-> ConstSpec t v v').
Proof. exact accept_iff. Qed.
Print Assumptions C12_accept_iff.

Theorem C12_compliant : forall t v v', ctype_ok t = true -> const_check t v = COk v' -> Compliant t v'.
Proof. exact compliant. Qed.
Print Assumptions C12_compliant.

(* never rounded or converted *)
Theorem C12_exact : forall t q v', const_check t (VRat q) = COk v' -> v' = VRat q.
Proof. exact exact. Qed.
Print Assumptions C12_exact.

(* only boolean, integer and float types carry constants; what is stored is a rational or (for bool only) a boolean *)
Theorem C12_only_prims : forall t v v', const_check t v = COk v' ->
  t <> TNonPrim /\ (exists q, v' = VRat q) \/ (t = TBool /\ exists b, v' = VBool b).
Proof. exact only_prims. Qed.
Print Assumptions C12_only_prims.

Theorem C12_nonprim_rejected : forall v, const_check TNonPrim v = CRej.
Proof. exact nonprim_rejected. Qed.
Print Assumptions C12_nonprim_rejected.

(* strings that cannot be encoded (lone surrogates) are rejected for every type (repaired F9) *)
Theorem C12_surrogate_rejected : forall t s, lone_surrogate s -> const_check t (VStr s) = CRej.
Proof. exact surrogate_rejected. Qed.
Print Assumptions C12_surrogate_rejected.

(* through definition text: exactly the constructor's verdict, for types that can be constructed and aggregated *)
Theorem C12_text_channel : forall t v v', const_text t v = COk v' <->
  ctype_ok t = true /\ t <> TByte /\ t <> TUtf8 /\ const_check t v = COk v'.
Proof. exact text_channel. Qed.
Print Assumptions C12_text_channel.

(* non-vacuity: both sides of a boundary, a character constant, a float limit *)
Example C12_nonvacuous :
  const_check (TSInt 64 false) (VRat (inject_Z (- 2 ^ 63))) = COk (VRat (inject_Z (- 2 ^ 63)))
  /\ const_check (TSInt 64 false) (VRat (inject_Z (- 2 ^ 63 - 1))) = CRej
  /\ const_check (TUInt 8 true) (VStr [97%Z]) = COk (VRat (inject_Z 97))
  /\ const_check (TFloat 16 false) (VRat (655040001 # 10000)) = CRej
  /\ const_check (TFloat 16 false) (VRat (65504 # 1)) = COk (VRat (65504 # 1)).
Proof. repeat split; vm_compute; reflexivity. Qed.
