(* The enumeration cost of Operator.modulo (BLS/Cost.v): closed forms of what one call enumerates, the bound of a residue list by
   its divisor, and invariance of result and cost under reduction of the repetition counts ([clamp]). *)
From Coq Require Import ZArith List Lia.
From PV Require Import Util.ListSet Util.Sumset BLS.Model BLS.Den BLS.Proofs BLS.ProofsMod BLS.Cost.
Import ListNotations.
Open Scope Z_scope.

Lemma mchoose_S s n : mchoose (S s) (S n) = mchoose (S s) n + mchoose s (S n).
Proof. reflexivity. Qed.
Lemma mchoose_0_S n : mchoose 0 (S n) = 0. Proof. reflexivity. Qed.
Lemma mchoose_n0 s : mchoose s 0 = 1. Proof. destruct s; reflexivity. Qed.

(* the closed form counts exactly what combinations_with_replacement enumerates *)
Theorem local_cost_rep S n : zlen (cwr_sums S n) = mchoose (length S) n.
Proof.
  unfold zlen. revert S. induction n as [|n IH]; intros l; [destruct l; reflexivity|].
  rewrite cwr_S. induction l as [|x t IHl]; [reflexivity|].
  rewrite go_cons, app_length, map_length. cbn [length]. rewrite mchoose_S, Nat2Z.inj_add, IH. cbn [length].
  rewrite <- cwr_S in IHl. rewrite <- cwr_S. rewrite IHl. reflexivity.
Qed.

Lemma mchoose_nonneg s n : 0 <= mchoose s n.
Proof.
  revert s. induction n as [|n IH]; intros s; [rewrite mchoose_n0; lia|].
  induction s as [|s IHs]; [rewrite mchoose_0_S; lia|]. rewrite mchoose_S. specialize (IH (S s)). lia.
Qed.

(* Evaluation device of the example C16_nonvacuous ([psums], [mrow], [mrow_spec], [mchoose_upto_row] here, [cost_modf_RRep],
   [cost_modf_Cat2] below): unfolding [mchoose_upto] takes as many steps as its value; row by row (the row for s + 1 symbols is
   the running sum of the row for s symbols) the number of additions is linear in the size of the table *)
Fixpoint psums (a : Z) (l : list Z) : list Z :=
  match l with [] => [] | x :: r => (a + x) :: psums (a + x) r end.

Fixpoint mrow (s n : nat) : list Z :=
  match s with O => 1 :: repeat 0 n | S s' => psums 0 (mrow s' n) end.

Lemma mrow_spec s n : mrow s n = map (mchoose s) (seq 0 (S n)).
Proof.
  induction s as [|s IH]; cbn [mrow seq map].
  - f_equal. assert (forall k, repeat 0 n = map (mchoose 0) (seq (S k) n)) as H; [|apply H].
    induction n as [|n IHn]; intros k; cbn [seq map repeat]; [reflexivity|]. f_equal. apply IHn.
  - rewrite IH. cbn [seq map psums]. rewrite !mchoose_n0. f_equal.
    assert (forall k, psums (mchoose (S s) k) (map (mchoose s) (seq (S k) n)) = map (mchoose (S s)) (seq (S k) n)) as H; [|apply (H O)].
    clear IH. induction n as [|n IHn]; intros k; cbn [seq map psums]; [reflexivity|]. rewrite <- mchoose_S. f_equal. apply IHn.
Qed.

Lemma mchoose_upto_row s n : mchoose_upto s n = zsum (mrow s n).
Proof. rewrite mrow_spec. reflexivity. Qed.

Lemma nodup_range_len (l : list Z) d : 0 < d -> NoDup l -> (forall x, In x l -> 0 <= x < d) -> zlen l <= d.
Proof.
  intros Hd ND R. unfold zlen.
  assert (length l <= length (range_d d))%nat as H
    by (apply NoDup_incl_length; [exact ND|]; intros x Hx; apply range_d_in; auto).
  rewrite range_d_len in H. lia.
Qed.

Theorem omod_len_bound t d : wf t -> 1 <= d -> zlen (omod t d) <= d.
Proof.
  intros W Hd. apply nodup_range_len; [lia|apply ssorted_nodup, omod_sorted|]. intros x Hx. eapply omod_range; eauto.
Qed.

Lemma equiv_k_large k d : 1 <= d -> d <= k -> equiv_k k d = d + k mod d.
Proof.
  intros Hd Hk. unfold equiv_k. apply Z.min_r. pose proof (Z.div_mod k d ltac:(lia)). pose proof (Z.mod_pos_bound k d ltac:(lia)).
  assert (1 <= k / d) by (apply Z.div_le_lower_bound; lia). nia.
Qed.

Lemma equiv_k_bound k d : 1 <= d -> 0 <= k -> 0 <= equiv_k k d < 2 * d.
Proof. intros Hd Hk. unfold equiv_k. pose proof (Z.mod_pos_bound k d ltac:(lia)). lia. Qed.

Lemma equiv_k_idem k d : 1 <= d -> 0 <= k -> equiv_k (equiv_k k d) d = equiv_k k d.
Proof.
  intros Hd Hk. pose proof (equiv_k_assert_ok k d Hd Hk) as E. unfold equiv_k at 1. rewrite <- E.
  unfold equiv_k. lia.
Qed.

Theorem capacity_sweep c d k k' : 1 <= d -> d <= k -> d <= k' -> k mod d = k' mod d ->
  omod (Rep c k) d = omod (Rep c k') d /\ cost_mod (Rep c k) d = cost_mod (Rep c k') d /\
  omod (RRep c k) d = omod (RRep c k') d /\ cost_mod (RRep c k) d = cost_mod (RRep c k') d.
Proof.
  intros Hd Hk Hk' E. cbn [omod cost_mod]. rewrite !(equiv_k_large k d), !(equiv_k_large k' d), E by lia. auto.
Qed.

Theorem count_clamp c d k : 1 <= d -> 0 <= k ->
  0 <= equiv_k k d < 2 * d /\
  omod (Rep c k) d = omod (Rep c (equiv_k k d)) d /\ cost_mod (Rep c k) d = cost_mod (Rep c (equiv_k k d)) d /\
  omod (RRep c k) d = omod (RRep c (equiv_k k d)) d /\ cost_mod (RRep c k) d = cost_mod (RRep c (equiv_k k d)) d.
Proof.
  intros Hd Hk. split; [apply equiv_k_bound; auto|]. cbn [omod cost_mod]. rewrite equiv_k_idem by auto. auto.
Qed.

(* whole-tree version: clamp every count to the divisor that reaches its node *)
Fixpoint clamp (t : op) (d : Z) {struct t} : op :=
  match t with
  | Leaf vs => Leaf vs
  | Pad c a => Pad (clamp c (Z.lcm a d)) a
  | Cat cs => Cat (map (fun c => clamp c d) cs)
  | Rep c k => Rep (clamp c d) (equiv_k k d)
  | RRep c k => RRep (clamp c d) (equiv_k k d)
  | Uni cs => Uni (map (fun c => clamp c d) cs)
  end.

Theorem clamp_omod t : wf t -> forall d, 1 <= d -> omod (clamp t d) d = omod t d.
Proof.
  induction 1 as [vs _ _|c a _ Ha IH|cs _ _ IH|c k _ Hk IH|c k _ Hk IH|cs _ _ IH] using wf_ind;
    intros d Hd; cbn [clamp omod].
  - reflexivity.
  - rewrite IH by (apply lcm_pos; auto). reflexivity.
  - rewrite map_map, (map_ext_Forall (fun c => omod (clamp c d) d) (fun c => omod c d)); [reflexivity|].
    eapply Forall_impl; [|exact IH]. auto.
  - rewrite IH, equiv_k_idem by auto. reflexivity.
  - rewrite IH, equiv_k_idem by auto. reflexivity.
  - rewrite !flat_map_concat_map, map_map, (map_ext_Forall (fun c => omod (clamp c d) d) (fun c => omod c d)); [reflexivity|].
    eapply Forall_impl; [|exact IH]. auto.
Qed.

Theorem clamp_cost t : wf t -> forall d, 1 <= d -> cost_mod (clamp t d) d = cost_mod t d.
Proof.
  induction 1 as [vs _ _|c a Wc Ha IH|cs _ Wcs IH|c k Wc Hk IH|c k Wc Hk IH|cs _ _ IH] using wf_ind;
    intros d Hd; cbn [clamp cost_mod].
  - reflexivity.
  - pose proof (lcm_pos a d Ha Hd). rewrite IH, clamp_omod by auto. reflexivity.
  - rewrite !map_map, (map_ext_Forall (fun c => cost_mod (clamp c d) d) (fun c => cost_mod c d))
      by (eapply Forall_impl; [|exact IH]; auto).
    rewrite (map_ext_Forall (fun c => zlen (omod (clamp c d) d)) (fun c => zlen (omod c d)));
      [reflexivity|]. eapply Forall_impl; [|exact Wcs]. intros c Wc. rewrite clamp_omod by auto. reflexivity.
  - rewrite IH, clamp_omod, equiv_k_idem by auto. reflexivity.
  - rewrite IH, clamp_omod, equiv_k_idem by auto. reflexivity.
  - rewrite map_map, (map_ext_Forall (fun c => cost_mod (clamp c d) d) (fun c => cost_mod c d)); [reflexivity|].
    eapply Forall_impl; [|exact IH]. auto.
Qed.

(* counts_small t d: when t is queried modulo d, every repetition count in t is below twice the divisor that reaches its
   node (a padding node passes lcm(a, d) down to its operand) *)
Fixpoint counts_small (t : op) (d : Z) {struct t} : Prop :=
  match t with
  | Leaf _ => True
  | Pad c a => counts_small c (Z.lcm a d)
  | Cat cs | Uni cs => (fix all (l : list op) : Prop := match l with [] => True | c :: r => counts_small c d /\ all r end) cs
  | Rep c k | RRep c k => 0 <= k < 2 * d /\ counts_small c d
  end.

Theorem clamp_small t : wf t -> forall d, 1 <= d -> counts_small (clamp t d) d.
Proof.
  induction 1 as [vs _ _|c a _ Ha IH|cs _ _ IH|c k _ Hk IH|c k _ Hk IH|cs _ _ IH] using wf_ind;
    intros d Hd; cbn [clamp counts_small].
  - exact I.
  - apply IH. apply lcm_pos; auto.
  - induction IH as [|c cs Hc _ IHcs]; cbn [map]; [exact I|]. split; [apply Hc; exact Hd|exact IHcs].
  - split; [apply equiv_k_bound; auto|apply IH; auto].
  - split; [apply equiv_k_bound; auto|apply IH; auto].
  - induction IH as [|c cs Hc _ IHcs]; cbn [map]; [exact I|]. split; [apply Hc; exact Hd|exact IHcs].
Qed.

(* the evaluator used by the case files *)
Theorem cost_modf_eq t : wf t -> forall d, 1 <= d -> cost_modf t d = cost_mod t d.
Proof.
  induction 1 as [vs _ _|c a Wc Ha IH|cs _ Wcs IH|c k Wc Hk IH|c k Wc Hk IH|cs _ _ IH] using wf_ind;
    intros d Hd; cbn [cost_modf cost_mod].
  - reflexivity.
  - pose proof (lcm_pos a d Ha Hd). rewrite IH, omodf_eq by auto. reflexivity.
  - rewrite (map_ext_Forall (fun c => cost_modf c d) (fun c => cost_mod c d)) by (eapply Forall_impl; [|exact IH]; auto).
    rewrite (map_ext_Forall (fun c => zlen (omodf c d)) (fun c => zlen (omod c d))); [reflexivity|].
    eapply Forall_impl; [|exact Wcs]. intros c Wc. rewrite omodf_eq by auto. reflexivity.
  - rewrite IH, omodf_eq by auto. reflexivity.
  - rewrite IH, omodf_eq by auto. reflexivity.
  - rewrite (map_ext_Forall (fun c => cost_modf c d) (fun c => cost_mod c d)); [reflexivity|].
    eapply Forall_impl; [|exact IH]. auto.
Qed.

Lemma cost_modf_RRep c k d :
  cost_modf (RRep c k) d = cost_modf c d + mchoose_upto (length (omodf c d)) (Z.to_nat (equiv_k k d)).
Proof. reflexivity. Qed.

Lemma cost_modf_Cat2 a b d :
  cost_modf (Cat [a; b]) d = cost_modf a d + cost_modf b d + zlen (omodf a d) * zlen (omodf b d).
Proof. cbn [cost_modf map]. unfold zsum, zprod. cbn [fold_right]. lia. Qed.

Theorem local_cost_rrep S n : zlen (cwr_upto S n) = mchoose_upto (length S) n.
Proof.
  unfold cwr_upto, mchoose_upto, zlen. generalize (seq 0 (Datatypes.S n)). intros l.
  induction l as [|j l IH]; [reflexivity|]. cbn [flat_map map fold_right]. rewrite app_length, Nat2Z.inj_add, IH.
  pose proof (local_cost_rep S j) as E. unfold zlen in E. rewrite E. reflexivity.
Qed.

Theorem local_cost_cat ls : zlen (prod_sums ls) = zprod (map zlen ls).
Proof.
  unfold zlen, zprod. induction ls as [|l ls IH]; [reflexivity|]. cbn [prod_sums fold_right map]. fold (prod_sums ls).
  rewrite <- IH. clear IH. induction l as [|x l IHl]; [simpl; lia|].
  cbn [flat_map length]. rewrite app_length, map_length, Nat2Z.inj_add, IHl. lia.
Qed.
