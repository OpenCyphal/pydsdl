(* Operator.modulo and Operator.expand denote what [Den] says; the fast evaluators, the memoisation wrapper and the
   approximate equality agree with them. *)
From Coq Require Import ZArith List Bool Lia.
From PV Require Import Util.ListSet Util.Sumset BLS.Model BLS.Den BLS.Proofs.
Import ListNotations.
Open Scope Z_scope.

Lemma modl_in d l r : In r (modl d l) <-> exists x, In x l /\ r = x mod d.
Proof. unfold modl. rewrite in_map_iff. split; intros (x & A & B); exists x; auto. Qed.

Lemma prod_sums_cons_in l ls s : In s (prod_sums (l :: ls)) <-> exists a b, In a l /\ In b (prod_sums ls) /\ s = a + b.
Proof.
  unfold prod_sums. cbn [fold_right]. rewrite in_flat_map. split.
  - intros (a & Ha & Hs). apply in_map_iff in Hs. destruct Hs as (b & <- & Hb). eauto.
  - intros (a & b & Ha & Hb & ->). exists a. split; [exact Ha|]. apply in_map. exact Hb.
Qed.

Lemma prod_sums_map_in (f : op -> list Z) cs s :
  In s (prod_sums (map f cs)) <-> exists ms, Forall2 (fun c m => In m (f c)) cs ms /\ s = zsum ms.
Proof.
  revert s. induction cs as [|c cs IH]; intros s; cbn [map].
  - split.
    + intros [<-|[]]. exists []. split; [constructor|reflexivity].
    + intros (ms & H & ->). inversion H. left. reflexivity.
  - rewrite prod_sums_cons_in. split.
    + intros (a & b & Ha & Hb & ->). apply IH in Hb. destruct Hb as (ms & F & ->).
      exists (a :: ms). split; [constructor; auto|reflexivity].
    + intros (ms & F & ->). inversion F as [|? a ? ms' Ha F']; subst.
      exists a, (zsum ms'). repeat split; auto. apply IH. eauto.
Qed.

Lemma zsum_mod_map d ys : d <> 0 -> zsum (map (fun y => y mod d) ys) mod d = zsum ys mod d.
Proof.
  intros Hd. induction ys as [|y ys IH]; [reflexivity|]. cbn [map]. rewrite !zsum_cons.
  rewrite Z.add_mod, IH, Z.mod_mod, <- Z.add_mod by exact Hd. reflexivity.
Qed.

(* lists related element-wise to images under g are images under g of related lists *)
Lemma Forall2_choice {A B C} (R : A -> B -> Prop) (Q : A -> C -> Prop) (g : C -> B) l :
  Forall (fun a => forall b, R a b <-> exists y, Q a y /\ b = g y) l ->
  forall bs, Forall2 R l bs <-> exists ys, Forall2 Q l ys /\ bs = map g ys.
Proof.
  induction 1 as [|a l Ha _ IH]; intros bs; split.
  - intros F. inversion F. exists []. split; constructor.
  - intros (ys & F & ->). inversion F. constructor.
  - intros F. inversion F as [|? b ? bs' Hb F']; subst. apply Ha in Hb. destruct Hb as (y & Hy & ->).
    apply IH in F'. destruct F' as (ys & F' & ->). exists (y :: ys). split; [constructor; auto|reflexivity].
  - intros (ys & F & ->). inversion F as [|? y ? ys' Hy F']; subst. cbn [map].
    constructor; [apply Ha; eauto|apply IH; eauto].
Qed.

(* S is the list of residues modulo d of the set D: what [omod] is to deliver (mod_ok), and what the induction
   hypothesis says of a child's list *)
Definition res_ok (D : Z -> Prop) (d : Z) (S : list Z) : Prop := forall s, In s S <-> exists x, D x /\ s = x mod d.

Lemma ksum_Den (D : Z -> Prop) d S n r : 1 <= d -> res_ok D d S ->
  (ksum d S n r <-> exists ys, length ys = n /\ Forall D ys /\ r = zsum ys mod d).
Proof.
  intros Hd HS. revert r. induction n as [|n IH]; intros r.
  - rewrite ksum_0. split.
    + intros ->. exists []. repeat split. constructor.
    + intros (ys & Hl & _ & ->). destruct ys; [reflexivity|discriminate].
  - rewrite ksum_S by lia. split.
    + intros (t & s & Ht & Hs & ->). apply IH in Ht. destruct Ht as (ys & Hl & F & ->).
      apply HS in Hs. destruct Hs as (y & Hy & ->).
      exists (y :: ys). cbn [length]. repeat split; [lia|constructor; auto|].
      rewrite zsum_cons, <- Z.add_mod by lia. f_equal. lia.
    + intros ([|y ys] & Hl & F & ->); [discriminate|]. inversion F; subst.
      exists (zsum ys mod d), (y mod d). repeat split.
      * apply IH. exists ys. repeat split; auto.
      * apply HS. eauto.
      * rewrite zsum_cons, <- Z.add_mod by lia. f_equal. lia.
Qed.

Lemma range_as_sumset d S K r :
  (exists j, (j <= K)%nat /\ ksum d S j r) <-> ksum d (0 :: S) K r.
Proof.
  rewrite ksum_nsum. split.
  - intros (j & Hj & H). apply ksum_nsum in H. destruct H as (x & H & ->).
    exists x. split; [apply nsum_pad_zero; eauto|reflexivity].
  - intros (x & H & ->). apply nsum_pad_zero in H. destruct H as (j & Hj & H).
    exists j. split; [exact Hj|]. apply ksum_nsum. eauto.
Qed.

Lemma cwr_upto_in d S n r :
  In r (modl d (cwr_upto S n)) <-> exists j, (j <= n)%nat /\ ksum d S j r.
Proof.
  rewrite modl_in. unfold cwr_upto. split.
  - intros (x & Hx & ->). apply in_flat_map in Hx. destruct Hx as (j & Hj & Hx). apply in_seq in Hj.
    exists j. split; [lia|]. apply ksum_nsum. exists x. split; [apply cwr_sums_spec; exact Hx|reflexivity].
  - intros (j & Hj & H). apply ksum_nsum in H. destruct H as (x & H & ->). exists x. split; [|reflexivity].
    apply in_flat_map. exists j. split; [apply in_seq; lia|apply cwr_sums_spec; exact H].
Qed.

Lemma cwr_mod_in d S n r : In r (modl d (cwr_sums S n)) <-> ksum d S n r.
Proof.
  rewrite modl_in, ksum_nsum. split; intros (x & Hx & E); exists x; (split; [apply cwr_sums_spec; exact Hx|exact E]).
Qed.

(* the reduction of the repetition count is sound: this is the number-theoretic heart of the solver *)
Lemma ksum_equiv_k d S k r : 1 <= d -> 0 <= k -> S <> [] ->
  (ksum d S (Z.to_nat (equiv_k k d)) r <-> ksum d S (Z.to_nat k) r).
Proof.
  intros Hd Hk HS. destruct S as [|s0 S']; [congruence|]. set (S := s0 :: S').
  destruct (equiv_k_ok d k ltac:(lia) Hk) as [E|(A & B & C)]; fold (equiv_k k d) in *.
  - rewrite E. tauto.
  - split; apply (sumset_reduce d ltac:(lia) S s0 (or_introl eq_refl)); try lia; rewrite !Z2Nat.id by lia; auto.
Qed.

Lemma ksum_range_equiv_k d S k r : 1 <= d -> 0 <= k ->
  (ksum d (0 :: S) (Z.to_nat (equiv_k k d)) r <-> ksum d (0 :: S) (Z.to_nat k) r).
Proof.
  intros Hd Hk.
  destruct (equiv_k_ok d k ltac:(lia) Hk) as [E|(A & B & C)]; fold (equiv_k k d) in *.
  - rewrite E. tauto.
  - split; apply (ksum_stable d ltac:(lia) (0 :: S) (or_introl eq_refl)); lia.
Qed.

Definition mod_ok (t : op) : Prop := forall d, 1 <= d -> res_ok (Den t) d (omod t d).

Lemma res_nonempty t d : wf t -> 1 <= d -> mod_ok t -> omod t d <> [].
Proof.
  intros Hwf Hd H. destruct (Den_nonempty t Hwf) as (x & Hx).
  intros E. assert (In (x mod d) (omod t d)) as Hin by (apply H; eauto). rewrite E in Hin. destruct Hin.
Qed.

Theorem omod_spec t : wf t -> mod_ok t.
Proof.
  unfold mod_ok, res_ok.
  induction 1 as [vs _ _|c a Hc Ha IH|cs _ _ IH|c k Hc Hk IH|c k Hc Hk IH|cs _ _ IH] using wf_ind;
    intros d Hd r; cbn [omod]; rewrite norm_in.
  - rewrite modl_in. reflexivity.
  - rewrite in_map_iff. pose proof (lcm_pos a d Ha Hd) as HL. split.
    + intros (s & <- & Hs). apply (IH _ HL) in Hs. destruct Hs as (x & Hx & ->).
      exists (pad a x). split; [exists x; auto|]. apply pad_mod_lcm; auto. eapply Den_nonneg; eauto.
    + intros (x & (y & Hy & ->) & ->). exists (y mod Z.lcm a d). split.
      * apply pad_mod_lcm; auto. eapply Den_nonneg; eauto.
      * apply (IH _ HL). eauto.
  - rewrite modl_in.
    assert (forall ms, Forall2 (fun c m => In m (omod c d)) cs ms <->
                       exists ys, Forall2 Den cs ys /\ ms = map (fun y => y mod d) ys) as HF.
    { apply Forall2_choice. eapply Forall_impl; [|exact IH]. intros c Hc. apply Hc. exact Hd. }
    split.
    + intros (s & Hs & ->). apply prod_sums_map_in in Hs. destruct Hs as (ms & F & ->).
      apply HF in F. destruct F as (ys & F & ->).
      exists (zsum ys). split; [apply Den_Cat; eauto|apply zsum_mod_map; lia].
    + intros (x & Hx & ->). apply Den_Cat in Hx. destruct Hx as (ys & F & ->).
      exists (zsum (map (fun y => y mod d) ys)). split; [|symmetry; apply zsum_mod_map; lia].
      apply prod_sums_map_in. exists (map (fun y => y mod d) ys). split; [apply HF; eauto|reflexivity].
  - rewrite cwr_mod_in.
    rewrite ksum_equiv_k by (auto; apply res_nonempty; auto).
    rewrite (ksum_Den (Den c) d (omod c d) _ r Hd (IH d Hd)). split.
    + intros (ys & A & B & ->). exists (zsum ys). split; [|reflexivity]. exists ys. repeat split; auto. lia.
    + intros (x & (ys & A & B & ->) & ->). exists ys. repeat split; auto. lia.
  - rewrite cwr_upto_in, range_as_sumset, ksum_range_equiv_k, <- range_as_sumset by auto. split.
    + intros (j & Hj & Hks). apply (ksum_Den (Den c) d (omod c d) _ r Hd (IH d Hd)) in Hks.
      destruct Hks as (ys & A & B & ->). exists (zsum ys). split; [|reflexivity]. exists ys. repeat split; auto. lia.
    + intros (x & (ys & A & B & ->) & ->). exists (length ys). split; [lia|].
      apply (ksum_Den (Den c) d (omod c d) _ _ Hd (IH d Hd)). exists ys. auto.
  - rewrite in_flat_map. rewrite Forall_forall in IH. split.
    + intros (c & Hcin & Hr). apply (IH c Hcin d Hd) in Hr. destruct Hr as (x & Hx & ->).
      exists x. split; [apply Den_Uni; eauto|reflexivity].
    + intros (x & Hx & ->). apply Den_Uni in Hx. destruct Hx as (c & Hcin & Hx). exists c. split; auto.
      apply (IH c Hcin d Hd). eauto.
Qed.

Lemma omod_sorted t d : ssorted (omod t d).
Proof. destruct t; cbn [omod]; apply norm_sorted. Qed.

Lemma omod_range t d r : wf t -> 1 <= d -> In r (omod t d) -> 0 <= r < d.
Proof. intros Hwf Hd H. apply (omod_spec t Hwf d Hd) in H. destruct H as (x & _ & ->). apply Z.mod_pos_bound. lia. Qed.

Lemma is_aligned_spec t d : wf t -> 1 <= d -> (is_aligned t d = true <-> forall x, Den t x -> (d | x)).
Proof.
  intros Hwf Hd. unfold is_aligned. rewrite list_eqb_eq. split.
  - intros E x Hx. assert (In (x mod d) (omod t d)) as Hin by (apply omod_spec; eauto).
    rewrite E in Hin. destruct Hin as [Hin|[]]. apply Z.mod_divide; lia.
  - intros H. apply ssorted_ext; [apply omod_sorted|repeat constructor|]. intros r. split.
    + intros Hr. apply (omod_spec t Hwf d Hd) in Hr. destruct Hr as (x & Hx & ->). left. symmetry. apply Z.mod_divide; [lia|auto].
    + intros [<-|[]]. destruct (Den_nonempty t Hwf) as (x & Hx). apply (omod_spec t Hwf d Hd). exists x. split; auto.
      symmetry. apply Z.mod_divide; [lia|auto].
Qed.

(* the internal assertions of PaddingOperator.modulo and of the k-reduction can never fire *)
Lemma pad_assert_ok c a d x : wf c -> 1 <= a -> 1 <= d -> In x (omod c (Z.lcm a d)) -> x <= omax (Pad c a) /\ x < Z.lcm a d.
Proof.
  intros Hc Ha Hd Hx. pose proof (lcm_pos a d Ha Hd) as HL.
  pose proof (omod_range c _ x Hc HL Hx) as R. split; [|lia].
  apply (omod_spec c Hc _ HL) in Hx. destruct Hx as (y & Hy & ->).
  destruct (omax_ok c Hc) as [_ Hle]. specialize (Hle y Hy). pose proof (Den_nonneg c Hc y Hy).
  cbn [omax]. pose proof (pad_bounds a (omax c) Ha). pose proof (Z.mod_le y (Z.lcm a d) ltac:(lia) ltac:(lia)). lia.
Qed.

Lemma equiv_k_assert_ok k d : 1 <= d -> 0 <= k -> k mod d = equiv_k k d mod d.
Proof.
  intros Hd Hk. destruct (equiv_k_ok d k ltac:(lia) Hk) as [E|(A & B & C)]; fold (equiv_k k d) in *; congruence.
Qed.

Lemma sums_Den (D : Z -> Prop) S n x : (forall s, In s S <-> D s) ->
  (nsum S n x <-> exists ys, length ys = n /\ Forall D ys /\ x = zsum ys).
Proof.
  intros HS. split.
  - intros (m & A & B & <-). exists m. repeat split; auto. apply Forall_forall. intros y Hy. apply HS. auto.
  - intros (ys & A & B & ->). exists ys. repeat split; auto. intros y Hy. apply HS. rewrite Forall_forall in B. auto.
Qed.

Theorem oexpand_spec t : wf t -> forall x, In x (oexpand t) <-> Den t x.
Proof.
  induction 1 as [vs _ _|c a _ _ IH|cs _ _ IH|c k _ Hk IH|c k _ Hk IH|cs _ _ IH] using wf_ind;
    intros x; cbn [oexpand]; rewrite norm_in.
  - reflexivity.
  - rewrite in_map_iff. split.
    + intros (y & <- & Hy). exists y. split; auto. apply IH; auto.
    + intros (y & Hy & ->). exists y. split; auto. apply IH; auto.
  - rewrite prod_sums_map_in, Den_Cat.
    split; intros (ys & F & ->); exists ys; (split; [|reflexivity]); revert F; apply Forall2_impl_in;
      (eapply Forall_impl; [|exact IH]); intros c Hc y; apply Hc.
  - apply (iff_trans (cwr_sums_spec _ _ _)), (iff_trans (sums_Den (Den c) _ _ _ IH)).
    split; intros (ys & A & B & ->); exists ys; repeat split; auto; lia.
  - unfold cwr_upto. rewrite in_flat_map. split.
    + intros (j & Hj & Hx). apply in_seq in Hj. apply cwr_sums_spec in Hx.
      apply (sums_Den (Den c) _ _ _ IH) in Hx. destruct Hx as (ys & A & B & ->).
      exists ys. repeat split; auto. lia.
    + intros (ys & A & B & ->). exists (length ys). split; [apply in_seq; lia|]. apply cwr_sums_spec.
      apply (sums_Den (Den c) _ _ _ IH). exists ys. auto.
  - rewrite in_flat_map, Den_Uni. rewrite Forall_forall in IH.
    split; intros (c & Hcin & Hx); exists c; (split; [exact Hcin|apply (IH c Hcin); exact Hx]).
Qed.

Lemma oexpand_sorted t : ssorted (oexpand t).
Proof. destruct t; cbn [oexpand]; apply norm_sorted. Qed.

Lemma oexpand_nodup t : NoDup (oexpand t).
Proof. apply ssorted_nodup, oexpand_sorted. Qed.

Lemma sumset_mod_in d A B r : In r (sumset_mod d A B) <-> exists a b, In a A /\ In b B /\ r = (a + b) mod d.
Proof.
  unfold sumset_mod. rewrite norm_in, in_flat_map. split.
  - intros (a & Ha & Hr). apply in_map_iff in Hr. destruct Hr as (b & <- & Hb). eauto.
  - intros (a & b & Ha & Hb & ->). exists a. split; auto. apply in_map_iff. eauto.
Qed.

Lemma sumset_in A B r : In r (sumset A B) <-> exists a b, In a A /\ In b B /\ r = a + b.
Proof.
  unfold sumset. rewrite norm_in, in_flat_map. split.
  - intros (a & Ha & Hr). apply in_map_iff in Hr. destruct Hr as (b & <- & Hb). eauto.
  - intros (a & b & Ha & Hb & ->). exists a. split; auto. apply in_map_iff. eauto.
Qed.

Lemma iter_sumset_mod_in d S n r : 1 <= d -> In r (iter_sumset_mod d S n) <-> ksum d S n r.
Proof.
  intros Hd. revert r. induction n as [|n IH]; intros r; cbn [iter_sumset_mod].
  - rewrite ksum_0. simpl. intuition.
  - rewrite sumset_mod_in, ksum_S by lia.
    split; intros (t & s & Ht & Hs); exists t, s; (split; [apply IH; exact Ht|exact Hs]).
Qed.

Lemma iter_sumset_in S n x : In x (iter_sumset S n) <-> nsum S n x.
Proof.
  revert x. induction n as [|n IH]; intros x; cbn [iter_sumset].
  - rewrite nsum_0. simpl. intuition.
  - rewrite sumset_in, nsum_S. split.
    + intros (y & s & Hy & Hs & ->). exists s, y. repeat split; [exact Hs|apply IH; exact Hy|lia].
    + intros (s & y & Hs & Hy & ->). exists y, s. repeat split; [apply IH; exact Hy|exact Hs|lia].
Qed.

Lemma iter_sorted_mod d S n : ssorted (iter_sumset_mod d S n).
Proof. destruct n; cbn [iter_sumset_mod]; [repeat constructor|apply norm_sorted]. Qed.
Lemma iter_sorted S n : ssorted (iter_sumset S n).
Proof. destruct n; cbn [iter_sumset]; [repeat constructor|apply norm_sorted]. Qed.

(* once a round adds nothing, no later round does *)
Lemma iter_sumset_mod_stable d S n m :
  sumset_mod d (iter_sumset_mod d S n) S = iter_sumset_mod d S n -> iter_sumset_mod d S (m + n) = iter_sumset_mod d S n.
Proof. intros H. induction m as [|m IH]; [reflexivity|]. cbn [Nat.add iter_sumset_mod]. rewrite IH. exact H. Qed.

Lemma zins0_incl S : incl (zins 0 S) (0 :: S) /\ incl (0 :: S) (zins 0 S).
Proof. split; intros s; apply zins_in. Qed.

(* the right folds over the operands, for children on which the two evaluators agree *)
Lemma fold_zunion (f g : op -> list Z) cs : Forall (fun c => f c = g c) cs ->
  fold_right (fun c acc => zunion (f c) acc) [] cs = norm (flat_map g cs).
Proof.
  intros fg. apply ssorted_ext; [|apply norm_sorted|].
  { clear fg. induction cs as [|c r IH]; cbn [fold_right]; [constructor|apply zunion_sorted; exact IH]. }
  intros r. rewrite norm_in. induction fg as [|c r' Hc _ IH]; cbn [fold_right flat_map]; [reflexivity|].
  rewrite zunion_in, in_app_iff, IH, Hc. reflexivity.
Qed.

Lemma fold_sumset (f g : op -> list Z) cs : Forall (fun c => f c = g c) cs ->
  fold_right (fun c acc => sumset (f c) acc) [0] cs = norm (prod_sums (map g cs)).
Proof.
  intros fg. apply ssorted_ext; [|apply norm_sorted|].
  { destruct cs; cbn [fold_right]; [repeat constructor|apply norm_sorted]. }
  intros r. rewrite norm_in. revert r. induction fg as [|c r' Hc _ IH]; intros r; cbn [fold_right map]; [reflexivity|].
  rewrite sumset_in, prod_sums_cons_in, Hc.
  split; intros (a & b & Ha & Hb & E); exists a, b; (split; [exact Ha|split; [apply IH; exact Hb|exact E]]).
Qed.

Lemma fold_sumset_mod (f g : op -> list Z) cs d : Forall (fun c => f c = g c) cs -> 1 <= d ->
  fold_right (fun c acc => sumset_mod d (f c) acc) [0 mod d] cs = norm (modl d (prod_sums (map g cs))).
Proof.
  intros fg Hd. apply ssorted_ext; [|apply norm_sorted|].
  { destruct cs; cbn [fold_right]; [repeat constructor|apply norm_sorted]. }
  intros r. rewrite norm_in. revert r. induction fg as [|c r' Hc _ IH]; intros r; cbn [fold_right map]; [reflexivity|].
  rewrite sumset_mod_in, modl_in, Hc. split.
  - intros (a & b & Ha & Hb & ->). apply IH, modl_in in Hb. destruct Hb as (s & Hs & ->).
    exists (a + s). split; [apply prod_sums_cons_in; eauto|]. apply Z.add_mod_idemp_r. lia.
  - intros (x & Hx & ->). apply prod_sums_cons_in in Hx. destruct Hx as (a & s & Ha & Hs & ->).
    exists a, (s mod d). repeat split; [exact Ha|apply IH, modl_in; eauto|]. symmetry. apply Z.add_mod_idemp_r. lia.
Qed.

Theorem omodf_eq t : wf t -> forall d, 1 <= d -> omodf t d = omod t d.
Proof.
  induction 1 as [vs _ _|c a _ Ha IH|cs _ _ IH|c k _ _ IH|c k _ _ IH|cs _ _ IH] using wf_ind;
    intros d Hd; cbn [omodf omod].
  - reflexivity.
  - rewrite IH by (apply lcm_pos; auto). reflexivity.
  - apply fold_sumset_mod; [|exact Hd]. eapply Forall_impl; [|exact IH]. auto.
  - rewrite IH by exact Hd. apply ssorted_ext; [apply iter_sorted_mod|apply norm_sorted|]. intros r.
    rewrite iter_sumset_mod_in, norm_in, cwr_mod_in by exact Hd. reflexivity.
  - rewrite IH by exact Hd. apply ssorted_ext; [apply iter_sorted_mod|apply norm_sorted|]. intros r.
    rewrite iter_sumset_mod_in, norm_in, cwr_upto_in, range_as_sumset, !ksum_nsum by exact Hd.
    split; intros (x & Hx & E); exists x; (split; [revert Hx; apply nsum_incl, zins0_incl|exact E]).
  - apply (fold_zunion (fun c => omodf c d) (fun c => omod c d)). eapply Forall_impl; [|exact IH]. auto.
Qed.

Theorem oexpandf_eq t : wf t -> oexpandf t = oexpand t.
Proof.
  induction 1 as [vs _ _|c a _ _ IH|cs _ _ IH|c k _ _ IH|c k _ _ IH|cs _ _ IH] using wf_ind; cbn [oexpandf oexpand].
  - reflexivity.
  - rewrite IH. reflexivity.
  - apply fold_sumset. exact IH.
  - rewrite IH. apply ssorted_ext; [apply iter_sorted|apply norm_sorted|]. intros r.
    rewrite iter_sumset_in, norm_in, cwr_sums_spec. reflexivity.
  - rewrite IH. apply ssorted_ext; [apply iter_sorted|apply norm_sorted|]. intros r.
    rewrite iter_sumset_in, norm_in. unfold cwr_upto. rewrite in_flat_map. split.
    + intros H. apply (nsum_incl _ _ _ _ (proj1 (zins0_incl _))), nsum_pad_zero in H. destruct H as (j & Hj & H).
      exists j. split; [apply in_seq; lia|apply cwr_sums_spec; exact H].
    + intros (j & Hj & H). apply in_seq in Hj. apply cwr_sums_spec in H.
      apply (nsum_incl _ _ _ _ (proj2 (zins0_incl _))), nsum_pad_zero. exists j. split; [lia|exact H].
  - apply fold_zunion. exact IH.
Qed.

Definition memo_inv (t : op) (m : memo) : Prop :=
  (forall v, m_min m = Some v -> v = omin t) /\ (forall v, m_max m = Some v -> v = omax t) /\
  (forall d v, assoc d (m_mods m) = Some v -> v = omod t d) /\ (forall v, m_exp m = Some v -> v = oexpand t).

Lemma memo0_inv t : memo_inv t memo0.
Proof. unfold memo_inv, memo0; simpl. repeat split; intros; discriminate. Qed.

Lemma mstep_ok t m q : memo_inv t m -> memo_inv t (fst (mstep t m q)) /\ snd (mstep t m q) = direct t q.
Proof.
  intros Hinv. pose proof Hinv as (I1 & I2 & I3 & I4). destruct q as [| |d|]; cbn [mstep direct].
  - destruct (m_min m) as [z|] eqn:E; simpl; [split; [exact Hinv|f_equal; apply I1; reflexivity]|].
    split; [|reflexivity]. repeat split; simpl; auto. intros v [= <-]. reflexivity.
  - destruct (m_max m) as [z|] eqn:E; simpl; [split; [exact Hinv|f_equal; apply I2; reflexivity]|].
    split; [|reflexivity]. repeat split; simpl; auto. intros v [= <-]. reflexivity.
  - destruct (assoc d (m_mods m)) as [z|] eqn:E; simpl; [split; [exact Hinv|f_equal; apply (I3 d); exact E]|].
    split; [|reflexivity]. repeat split; simpl; auto. intros d' v. destruct (d =? d') eqn:Ed.
    + apply Z.eqb_eq in Ed. subst. intros [= <-]. reflexivity.
    + apply I3.
  - destruct (m_exp m) as [z|] eqn:E; simpl; [split; [exact Hinv|f_equal; apply I4; reflexivity]|].
    split; [|reflexivity]. repeat split; simpl; auto. intros v [= <-]. reflexivity.
Qed.

Theorem memo_transparent t qs : mrun t memo0 qs = map (direct t) qs.
Proof.
  assert (forall m, memo_inv t m -> mrun t m qs = map (direct t) qs) as H; [|apply H, memo0_inv].
  induction qs as [|q qs IH]; intros m Hm; cbn [mrun map]; [reflexivity|].
  destruct (mstep_ok t m q Hm) as [Hinv Hans]. destruct (mstep t m q) as [m' a]. simpl in *. rewrite Hans. f_equal. apply IH. exact Hinv.
Qed.

Theorem approx_eq_complete a b : wf a -> wf b -> (forall x, Den a x <-> Den b x) -> approx_eq a b = true /\ bls_hash a = bls_hash b.
Proof.
  intros Ha Hb H.
  destruct (omin_ok a Ha) as [A1 A2]. destruct (omin_ok b Hb) as [B1 B2].
  destruct (omax_ok a Ha) as [A3 A4]. destruct (omax_ok b Hb) as [B3 B4].
  assert (omin a = omin b) as Emin.
  { pose proof (A2 _ (proj2 (H _) B1)). pose proof (B2 _ (proj1 (H _) A1)). lia. }
  assert (omax a = omax b) as Emax.
  { pose proof (A4 _ (proj2 (H _) B3)). pose proof (B4 _ (proj1 (H _) A3)). lia. }
  split; [|unfold bls_hash; congruence].
  unfold approx_eq. rewrite Emin, Emax, !Z.eqb_refl. simpl. apply list_eqb_eq.
  apply ssorted_ext; try apply omod_sorted. intros r.
  rewrite (omod_spec a Ha 32 ltac:(lia) r), (omod_spec b Hb 32 ltac:(lia) r).
  split; intros (x & Hx & ->); exists x; split; auto; apply H; auto.
Qed.

Lemma wfb_wf t : wfb t = true -> wf t.
Proof.
  induction t as [vs|c a IH|cs IH|c k IH|c k IH|cs IH] using op_ind'; cbn [wfb wf]; intros H;
    apply andb_true_iff in H; destruct H as [H1 H2].
  - split; [destruct vs; [discriminate|congruence]|].
    apply Forall_forall. intros v Hv. rewrite forallb_forall in H2. specialize (H2 v Hv). lia.
  - split; [auto|lia].
  - split; [destruct cs; [discriminate|congruence]|].
    apply allw_Forall. rewrite Forall_forall in *. rewrite forallb_forall in H2. auto.
  - split; [auto|lia].
  - split; [auto|lia].
  - split; [destruct cs; [discriminate|congruence]|].
    apply allw_Forall. rewrite Forall_forall in *. rewrite forallb_forall in H2. auto.
Qed.
