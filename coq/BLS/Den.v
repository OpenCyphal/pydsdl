(* The mathematically defined set of an operator tree, written without reference to the algorithms. *)
From Coq Require Import ZArith List.
From PV Require Import Util.Sumset BLS.Model.
Import ListNotations.
Open Scope Z_scope.

Section All2.
Variable D : op -> Z -> Prop.
Fixpoint all2 (cs : list op) (ys : list Z) : Prop :=
  match cs, ys with
  | [], [] => True
  | c :: cs', y :: ys' => D c y /\ all2 cs' ys'
  | _, _ => False
  end.
Fixpoint any1 (cs : list op) (x : Z) : Prop :=
  match cs with [] => False | c :: cs' => D c x \/ any1 cs' x end.
End All2.

(* Den t x : x is an element of the set denoted by t:
   leaf = the given values; padding = each element rounded up; concatenation = element-wise sums over the
   cartesian product; repetition = sums of k elements; range repetition = sums of at most k elements; union. *)
Fixpoint Den (t : op) (x : Z) {struct t} : Prop :=
  match t with
  | Leaf vs => In x vs
  | Pad c a => exists y, Den c y /\ x = pad a y
  | Cat cs => exists ys, all2 Den cs ys /\ x = zsum ys
  | Rep c k => exists ys, Z.of_nat (length ys) = k /\ Forall (Den c) ys /\ x = zsum ys
  | RRep c k => exists ys, Z.of_nat (length ys) <= k /\ Forall (Den c) ys /\ x = zsum ys
  | Uni cs => any1 Den cs x
  end.

Section Wf.
Variable W : op -> Prop.
Fixpoint allw (cs : list op) : Prop := match cs with [] => True | c :: r => W c /\ allw r end.
End Wf.

Fixpoint wf (t : op) : Prop :=
  match t with
  | Leaf vs => vs <> [] /\ Forall (fun v => 0 <= v) vs
  | Pad c a => wf c /\ 1 <= a
  | Cat cs => cs <> [] /\ allw wf cs
  | Rep c k | RRep c k => wf c /\ 0 <= k
  | Uni cs => cs <> [] /\ allw wf cs
  end.

Section Ind.
Variable P : op -> Prop.
Hypothesis HLeaf : forall vs, P (Leaf vs).
Hypothesis HPad : forall c a, P c -> P (Pad c a).
Hypothesis HCat : forall cs, Forall P cs -> P (Cat cs).
Hypothesis HRep : forall c k, P c -> P (Rep c k).
Hypothesis HRRep : forall c k, P c -> P (RRep c k).
Hypothesis HUni : forall cs, Forall P cs -> P (Uni cs).
Fixpoint op_ind' (t : op) : P t :=
  match t with
  | Leaf vs => HLeaf vs
  | Pad c a => HPad c a (op_ind' c)
  | Cat cs => HCat cs ((fix go (l : list op) : Forall P l := match l with [] => Forall_nil P | c :: r => Forall_cons c (op_ind' c) (go r) end) cs)
  | Rep c k => HRep c k (op_ind' c)
  | RRep c k => HRRep c k (op_ind' c)
  | Uni cs => HUni cs ((fix go (l : list op) : Forall P l := match l with [] => Forall_nil P | c :: r => Forall_cons c (op_ind' c) (go r) end) cs)
  end.
End Ind.

Lemma allw_Forall W cs : allw W cs <-> Forall W cs.
Proof. induction cs as [|c r IH]; simpl; split; intros H; auto. - destruct H; constructor; tauto. - inversion H; subst; tauto. Qed.

Lemma Forall_mp {A} (P Q : A -> Prop) l : Forall (fun a => P a -> Q a) l -> Forall P l -> Forall Q l.
Proof. induction 1; inversion 1; constructor; auto. Qed.

(* induction over well-formed trees: the side conditions of [wf] arrive as hypotheses of each case *)
Lemma wf_ind (P : op -> Prop) :
  (forall vs, vs <> [] -> Forall (fun v => 0 <= v) vs -> P (Leaf vs)) ->
  (forall c a, wf c -> 1 <= a -> P c -> P (Pad c a)) ->
  (forall cs, cs <> [] -> Forall wf cs -> Forall P cs -> P (Cat cs)) ->
  (forall c k, wf c -> 0 <= k -> P c -> P (Rep c k)) ->
  (forall c k, wf c -> 0 <= k -> P c -> P (RRep c k)) ->
  (forall cs, cs <> [] -> Forall wf cs -> Forall P cs -> P (Uni cs)) ->
  forall t, wf t -> P t.
Proof.
  intros HLeaf HPad HCat HRep HRRep HUni.
  induction t as [vs|c a IH|cs IH|c k IH|c k IH|cs IH] using op_ind'; cbn [wf]; intros [W1 W2]; auto.
  - apply allw_Forall in W2. apply HCat; auto. exact (Forall_mp _ _ _ IH W2).
  - apply allw_Forall in W2. apply HUni; auto. exact (Forall_mp _ _ _ IH W2).
Qed.
