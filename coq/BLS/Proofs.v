(* Facts about [pad], sums and the n-ary nodes of [Den]; every element is non-negative, [omin] / [omax] are attained bounds. *)
From Coq Require Import ZArith List Lia.
From PV Require Import Util.Sumset BLS.Model BLS.Den.
Import ListNotations.
Open Scope Z_scope.

Lemma pad_bounds a x : 1 <= a -> x <= pad a x < x + a.
Proof.
  intros Ha. unfold pad. pose proof (Z.div_mod (x + a - 1) a ltac:(lia)).
  pose proof (Z.mod_pos_bound (x + a - 1) a ltac:(lia)). nia.
Qed.

Lemma pad_lt a x : 1 <= a -> pad a x < x + a.
Proof. intros Ha. apply pad_bounds. exact Ha. Qed.

Lemma pad_mono a x y : 1 <= a -> x <= y -> pad a x <= pad a y.
Proof. intros Ha H. unfold pad. apply Z.mul_le_mono_nonneg_r; [lia|]. apply Z.div_le_mono; lia. Qed.

Lemma pad_divide a x : (a | pad a x).
Proof. unfold pad. apply Z.divide_factor_r. Qed.

Lemma lcm_pos a d : 1 <= a -> 1 <= d -> 1 <= Z.lcm a d.
Proof.
  intros Ha Hd. pose proof (Z.lcm_nonneg a d). assert (Z.lcm a d <> 0); [|lia]. intros E. apply Z.lcm_eq_0 in E. lia.
Qed.

(* padding commutes with reduction modulo lcm(a, d) when the result is read modulo d: both a and d divide the lcm *)
Lemma pad_mod_lcm a d x : 1 <= a -> 1 <= d -> 0 <= x ->
  pad a (x mod Z.lcm a d) mod d = pad a x mod d.
Proof.
  intros Ha Hd Hx. pose proof (lcm_pos a d Ha Hd) as HL. set (L := Z.lcm a d) in *.
  destruct (Z.divide_lcm_l a d) as [qa Hqa]. fold L in Hqa.
  destruct (Z.divide_lcm_r a d) as [qd Hqd]. fold L in Hqd.
  rewrite (Z.div_mod x L) at 2 by lia.
  set (q := x / L). set (r := x mod L).
  unfold pad.
  replace (L * q + r + a - 1) with ((r + a - 1) + (q * qa) * a) by (rewrite Hqa; ring).
  rewrite Z.div_add by lia.
  assert (q * qa * a = q * qd * d) as E by (rewrite <- !Z.mul_assoc, <- Hqa, <- Hqd; reflexivity).
  replace (((r + a - 1) / a + q * qa) * a) with ((r + a - 1) / a * a + (q * qd) * d) by (rewrite Z.mul_add_distr_r; lia).
  rewrite Z.mod_add by lia. reflexivity.
Qed.

Lemma all2_Forall2 (D : op -> Z -> Prop) cs ys : all2 D cs ys <-> Forall2 D cs ys.
Proof.
  revert ys; induction cs as [|c cs IH]; intros [|y ys]; simpl.
  - split; auto.
  - split; [tauto|]. intros H; inversion H.
  - split; [tauto|]. intros H; inversion H.
  - rewrite IH. split; [intros [H1 H2]; constructor; auto|]. intros H; inversion H; subst; auto.
Qed.

Lemma zsum_repeat v n : zsum (repeat v n) = v * Z.of_nat n.
Proof. induction n as [|n IH]; [simpl; lia|]. cbn [repeat zsum fold_right]. fold (zsum (repeat v n)). rewrite IH. lia. Qed.

Lemma zsum_cons x l : zsum (x :: l) = x + zsum l. Proof. reflexivity. Qed.

Lemma zsum_lower (P : Z -> Prop) m ys : (forall y, P y -> m <= y) -> Forall P ys -> m * Z.of_nat (length ys) <= zsum ys.
Proof. intros Hm H. induction H as [|y ys Hy _ IH]; [simpl; lia|]. rewrite zsum_cons. cbn [length]. specialize (Hm _ Hy). lia. Qed.

Lemma zsum_upper (P : Z -> Prop) m ys : (forall y, P y -> y <= m) -> Forall P ys -> zsum ys <= m * Z.of_nat (length ys).
Proof. intros Hm H. induction H as [|y ys Hy _ IH]; [simpl; lia|]. rewrite zsum_cons. cbn [length]. specialize (Hm _ Hy). lia. Qed.

Lemma zsum_nonneg ys : Forall (fun y => 0 <= y) ys -> 0 <= zsum ys.
Proof. induction 1; [simpl; lia|]. rewrite zsum_cons. lia. Qed.

Lemma zmin_list_spec l : l <> [] -> In (zmin_list l) l /\ forall x, In x l -> zmin_list l <= x.
Proof.
  destruct l as [|m ms]; [congruence|]. intros _. unfold zmin_list. induction ms as [|y ys [Hin Hle]]; simpl.
  - split; [auto|]. intros x [<-|[]]. lia.
  - split.
    + destruct (Z.min_spec y (fold_right Z.min m ys)) as [[_ ->]|[_ ->]]; [auto|]. destruct Hin; auto.
    + intros x [<-|[<-|Hx]]; [specialize (Hle m (or_introl eq_refl))| |specialize (Hle x (or_intror Hx))]; lia.
Qed.

Lemma zmax_list_spec l : l <> [] -> In (zmax_list l) l /\ forall x, In x l -> x <= zmax_list l.
Proof.
  destruct l as [|m ms]; [congruence|]. intros _. unfold zmax_list. induction ms as [|y ys [Hin Hle]]; simpl.
  - split; [auto|]. intros x [<-|[]]. lia.
  - split.
    + destruct (Z.max_spec y (fold_right Z.max m ys)) as [[_ ->]|[_ ->]]; [|auto]. destruct Hin; auto.
    + intros x [<-|[<-|Hx]]; [specialize (Hle m (or_introl eq_refl))| |specialize (Hle x (or_intror Hx))]; lia.
Qed.

Lemma any1_exists (D : op -> Z -> Prop) cs x : any1 D cs x <-> exists c, In c cs /\ D c x.
Proof.
  induction cs as [|c cs IH]; simpl; [firstorder|]. rewrite IH. split.
  - intros [H|(c' & Hin & H)]; eauto.
  - intros (c' & [<-|Hin] & H); eauto.
Qed.

Lemma Den_Cat cs x : Den (Cat cs) x <-> exists ys, Forall2 Den cs ys /\ x = zsum ys.
Proof. cbn [Den]. split; intros (ys & H & E); exists ys; (split; [apply all2_Forall2; exact H|exact E]). Qed.

Lemma Den_Uni cs x : Den (Uni cs) x <-> exists c, In c cs /\ Den c x.
Proof. apply any1_exists. Qed.

Lemma Den_Rep_repeat c k v : 0 <= k -> Den c v -> Den (Rep c k) (v * k).
Proof.
  intros Hk H. exists (repeat v (Z.to_nat k)). rewrite repeat_length, zsum_repeat. repeat split; [lia| |f_equal; lia].
  apply Forall_forall. intros y Hy. apply repeat_spec in Hy. subst. exact H.
Qed.

Lemma Forall2_impl_in {A B} (R R' : A -> B -> Prop) l l' :
  Forall (fun a => forall b, R a b -> R' a b) l -> Forall2 R l l' -> Forall2 R' l l'.
Proof. intros H F. induction F; inversion H; subst; constructor; auto. Qed.

Lemma Forall2_diag {A B} (R : A -> B -> Prop) f l : Forall (fun a => R a (f a)) l -> Forall2 R l (map f l).
Proof. induction 1; constructor; auto. Qed.

(* a relation compatible with addition carries over from the operands of a concatenation to the sums *)
Lemma zsum_map_rel (R : Z -> Z -> Prop) (f : op -> Z) cs ys :
  R 0 0 -> (forall a b c d, R a b -> R c d -> R (a + c) (b + d)) ->
  Forall (fun c => forall y, Den c y -> R (f c) y) cs -> Forall2 Den cs ys -> R (zsum (map f cs)) (zsum ys).
Proof.
  intros R0 Radd H F. induction F as [|c y cs ys Hy _ IH]; [exact R0|].
  inversion H; subst. cbn [map]. rewrite !zsum_cons. auto.
Qed.

Lemma Den_nonneg t : wf t -> forall x, Den t x -> 0 <= x.
Proof.
  induction 1 as [vs _ Hv|c a _ Ha IH|cs _ _ IH|c k _ _ IH|c k _ _ IH|cs _ _ IH] using wf_ind; intros x Hx.
  - rewrite Forall_forall in Hv. auto.
  - destruct Hx as (y & Hy & ->). specialize (IH y Hy). pose proof (pad_bounds a y Ha). lia.
  - apply Den_Cat in Hx. destruct Hx as (ys & F & ->). apply (zsum_map_rel Z.le (fun _ => 0) cs) in F; auto; try lia.
    replace (zsum (map (fun _ => 0) cs)) with 0 in F; [exact F|]. clear. induction cs; simpl in *; lia.
  - destruct Hx as (ys & _ & Hys & ->). apply zsum_nonneg. eapply Forall_impl; [|exact Hys]. auto.
  - destruct Hx as (ys & _ & Hys & ->). apply zsum_nonneg. eapply Forall_impl; [|exact Hys]. auto.
  - apply Den_Uni in Hx. destruct Hx as (c & Hin & Hx). rewrite Forall_forall in IH. eauto.
Qed.

Lemma omin_ok t : wf t -> Den t (omin t) /\ forall x, Den t x -> omin t <= x.
Proof.
  induction 1 as [vs Hne _|c a _ Ha [H1 H2]|cs _ _ IH|c k Hc Hk [H1 H2]|c k Hc Hk _|cs Hne _ IH] using wf_ind; cbn [omin].
  - apply zmin_list_spec. exact Hne.
  - split; [exists (omin c); auto|]. intros x (y & Hy & ->). apply pad_mono; auto.
  - split.
    + apply Den_Cat. exists (map omin cs). split; [|reflexivity]. apply Forall2_diag. eapply Forall_impl; [|exact IH]. intros c [H _]. exact H.
    + intros x Hx. apply Den_Cat in Hx. destruct Hx as (ys & F & ->). apply (zsum_map_rel Z.le); auto; try lia.
      eapply Forall_impl; [|exact IH]. intros c [_ H]. exact H.
  - split; [apply Den_Rep_repeat; auto|].
    intros x (ys & Hl & Hys & ->). rewrite <- Hl. apply (zsum_lower (Den c)); auto.
  - split; [exists []; simpl; repeat split; [lia|constructor]|].
    apply (Den_nonneg (RRep c k)). split; assumption.
  - assert (map omin cs <> []) as Hne' by (destruct cs; simpl; congruence).
    destruct (zmin_list_spec _ Hne') as [Hin Hle]. rewrite Forall_forall in IH. split.
    + apply in_map_iff in Hin. destruct Hin as (c & Hc & Hcin). apply Den_Uni. exists c. split; auto.
      rewrite <- Hc. apply IH; auto.
    + intros x Hx. apply Den_Uni in Hx. destruct Hx as (c & Hcin & Hx).
      pose proof (proj2 (IH c Hcin) x Hx). pose proof (Hle (omin c) (in_map omin cs c Hcin)). lia.
Qed.

Lemma omax_ok t : wf t -> Den t (omax t) /\ forall x, Den t x -> x <= omax t.
Proof.
  induction 1 as [vs Hne _|c a _ Ha [H1 H2]|cs _ _ IH|c k Hc Hk [H1 H2]|c k Hc Hk [H1 H2]|cs Hne _ IH] using wf_ind; cbn [omax].
  - apply zmax_list_spec. exact Hne.
  - split; [exists (omax c); auto|]. intros x (y & Hy & ->). apply pad_mono; auto.
  - split.
    + apply Den_Cat. exists (map omax cs). split; [|reflexivity]. apply Forall2_diag. eapply Forall_impl; [|exact IH]. intros c [H _]. exact H.
    + intros x Hx. apply Den_Cat in Hx. destruct Hx as (ys & F & ->). apply Z.ge_le. apply (zsum_map_rel Z.ge); auto; try lia.
      eapply Forall_impl; [|exact IH]. intros c [_ H] y Hy. specialize (H y Hy). lia.
  - split; [apply Den_Rep_repeat; auto|].
    intros x (ys & Hl & Hys & ->). rewrite <- Hl. apply (zsum_upper (Den c)); auto.
  - split.
    + destruct (Den_Rep_repeat c k _ Hk H1) as (ys & Hl & Hys). exists ys. split; [lia|exact Hys].
    + intros x (ys & Hl & Hys & ->).
      pose proof (zsum_upper (Den c) (omax c) ys H2 Hys). pose proof (Den_nonneg c Hc _ H1). nia.
  - assert (map omax cs <> []) as Hne' by (destruct cs; simpl; congruence).
    destruct (zmax_list_spec _ Hne') as [Hin Hle]. rewrite Forall_forall in IH. split.
    + apply in_map_iff in Hin. destruct Hin as (c & Hc & Hcin). apply Den_Uni. exists c. split; auto.
      rewrite <- Hc. apply IH; auto.
    + intros x Hx. apply Den_Uni in Hx. destruct Hx as (c & Hcin & Hx).
      pose proof (proj2 (IH c Hcin) x Hx). pose proof (Hle (omax c) (in_map omax cs c Hcin)). lia.
Qed.

Lemma Den_nonempty t : wf t -> exists x, Den t x.
Proof. intros H. exists (omin t). apply omin_ok. exact H. Qed.

Lemma fixed_spec t : wf t -> (fixed t = true <-> forall x y, Den t x -> Den t y -> x = y).
Proof.
  intros Hwf. destruct (omin_ok t Hwf) as [M1 M2]. destruct (omax_ok t Hwf) as [X1 X2]. unfold fixed. rewrite Z.eqb_eq. split.
  - intros E x y Hx Hy. pose proof (M2 x Hx). pose proof (X2 x Hx). pose proof (M2 y Hy). pose proof (X2 y Hy). lia.
  - intros H. apply H; auto.
Qed.
